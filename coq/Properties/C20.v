(* C20 - Daemon robustness: no crash, no leak, no data race on any input.
   Theorems only.  A crash of the process is `Panic` in the model (nil dereferences and explicit panics are
   modelled at the sites where the code has them and compared with the implementation: a run that panics in
   the code must panic in the model and vice versa - Corr/Mgr.v, Corr/C10.v, Corr/C11.v).  Leaks and data
   races are runtime behaviour no Gallina model can exhibit: they are decided by the harness (goroutine /
   connection counts over long runs; the race detector over the concurrent loops) - partial. *)
From Coq Require Import ZArith NArith Bool List.
From Mysync Require Import Gtid.Interval Gtid.GtidSet Pure.Quorum Base.Prog Base.ProgFacts Base.Config
  Base.Post Procs.NodeOps Procs.Lost Procs.ActiveNodes Procs.Switchover Procs.Repair Procs.Optimization Procs.Manager Procs.Recovery Proofs.RepairProofs Proofs.ManagerProofs Proofs.RecoveryProofs Proofs.NoCrash Procs.LagCheck Proofs.LagCheckProofs Proofs.GatesProofs.
Import ListNotations.
Open Scope Z_scope.

(* soundness of the judgement: a nopanic program never ends a run by crashing, whatever is answered *)
Theorem C20_nopanic_means_no_crash : forall A (p : prog A), nopanic p -> forall tr o, runs p tr o -> exists a, o = Done a.
Proof. intros A p H tr o R. exact (nopanic_sound p H tr o R). Qed.
Print Assumptions C20_nopanic_means_no_crash.

(* the recovery check (after the repair 5d843b2) cannot crash, whatever the coordination service and the
   servers contain or return *)
Theorem C20_recovery_check_never_crashes : forall me m clk, nopanic (check_recovery me m clk).
Proof. exact check_recovery_nopanic. Qed.
Print Assumptions C20_recovery_check_never_crashes.

(* failure detection and the suspicious-master guard cannot crash once the recorded master is present in
   both views - which the repaired stateManager (d1e5675) establishes before it gets there *)
Theorem C20_failure_detection_never_crashes : forall cfg cs csd active m master light msd ms,
  assoc master csd = Some msd -> assoc master cs = Some ms -> nopanic (after_requests cfg cs csd active m master light).
Proof. exact after_requests_nopanic. Qed.
Print Assumptions C20_failure_detection_never_crashes.

Theorem C20_candidate_never_crashes : forall m, nopanic (state_candidate m).
Proof. exact state_candidate_nopanic. Qed.
Print Assumptions C20_candidate_never_crashes.

(* switching optimisation off at the start of a switchover (after the repair 923b14a) cannot crash for a
   registered old master, whatever hosts the published active list and the optimisation registry name *)
Theorem C20_optimisation_shutoff_never_crashes : forall master nodes, nopanic (opt_disable_all_k true master nodes).
Proof. exact disable_all_nopanic. Qed.
Print Assumptions C20_optimisation_shutoff_never_crashes.

(* enabling semi-sync on joining replicas (after the repair becaa66) cannot crash, whatever the cluster view
   holds for them or for the recorded master *)
Theorem C20_semisync_join_never_crashes : forall env ms l w active, nopanic (enable_loop env ms l w active).
Proof. exact enable_loop_nopanic. Qed.
Print Assumptions C20_semisync_join_never_crashes.

(* performChangeMaster(host, host) panics deliberately ... *)
Theorem C20_change_master_to_itself_panics : forall cfg h, runs (perform_change_master cfg h h) [] (Panicked 2079).
Proof. exact change_master_to_itself_panics. Qed.
Print Assumptions C20_change_master_to_itself_panics.
(* ... but (after the repair bee82ca) the cascade repair never gets there: whatever the stream_from
   configuration (self-references, cycles, dangling or empty sources) and whatever the servers answer,
   no run of repairCascadeNode ends in that panic *)
Theorem C20_cascade_repair_never_repoints_to_itself : forall cfg env topo h ns la tr s,
  h <> re_master env -> runs (repair_cascade_node cfg env topo h ns la) tr (Panicked s) -> s <> 2079.
Proof. exact cascade_repair_no_self_repoint_panic. Qed.
Print Assumptions C20_cascade_repair_never_repoints_to_itself.

(* the whole iteration:
   NO run of the manager iteration (stateManager: registry refresh, both views of the cluster, maintenance,
   switch requests with the complete performSwitchover, failure detection, and the repair tail: offline-mode
   repair, repairCluster with the cascade resolver, updateActiveNodes, optimisation sync) ends in a crash -
   for every process memory, every iteration order and EVERY response of every MySQL statement, coordination
   call, clock and file operation, hence for every content of the coordination service (dangling master,
   unregistered active-list members and stream_from sources, missing or malformed health records) and every
   server state.  No hypothesis.  The crash leaves that remain in the model sit behind lookups in the two
   views; they are unreachable because both views are built over one host list and the recorded master is
   checked to be on it (Base/Post.v: the join of a parallel section receives one result per branch).
   Seven leaves WERE reachable when the proof was first attempted; each witness reproduced on the real code
   and was repaired in /repo: a replica status that comes back empty (four sites, afce506), a health record
   without replication settings (188364a), a stream_from candidate whose state was collected only partly
   (226864b).  The pre-switchover speed-up phase is not part of perform_switchover's model; it is covered by its
   own theorem below. *)
Theorem C20_manager_iteration_never_crashes : forall cfg env m tr o,
  runs (state_manager cfg env m) tr o -> exists a, o = Done a.
Proof. exact state_manager_never_crashes. Qed.
Print Assumptions C20_manager_iteration_never_crashes.

(* the premise is satisfiable: a concrete run (the coordination service is not connected) *)
Example C20_manager_iteration_has_runs : forall cfg env m,
  runs (state_manager cfg env m) [{| ev_site := 368; ev_call := DcsConnected; ev_resp := RBool false |}] (Done (NxLost, m)).
Proof. exact state_manager_has_runs. Qed.

(* the same judgement, site by site: every crash leaf the iteration could reach satisfies False *)
Theorem C20_manager_iteration_has_no_reachable_crash_site : forall cfg env m,
  post (fun _ : site => False) (fun _ => True) (state_manager cfg env m).
Proof. exact state_manager_nocrash. Qed.
Print Assumptions C20_manager_iteration_has_no_reachable_crash_site.

(* the paused state (stateMaintenance, with leaving: re-learning the master, repair, active list) *)
Theorem C20_maintenance_state_never_crashes : forall cfg env m tr o,
  runs (state_maintenance cfg env m) tr o -> exists a, o = Done a.
Proof. exact state_maintenance_never_crashes. Qed.
Print Assumptions C20_maintenance_state_never_crashes.

Theorem C20_lost_state_never_crashes : forall cfg env, nopanic (state_lost cfg env).
Proof. exact state_lost_nopanic. Qed.
Print Assumptions C20_lost_state_never_crashes.

(* the speed-up phase that precedes a planned switchover (replication.go optimizationPhase: choice of the replica,
   registration, the waiter and the concurrently ticking syncer) never crashes either, given what stateManager
   establishes for the view it hands over: the hosts of the health records are registered hosts and so is the
   master.  An eighth reachable crash leaf was found here (a requested target that is in the active list but not
   registered: nil handle passed to the controller) and repaired in /repo (5861b10). *)
Theorem C20_speedup_phase_never_crashes : forall fuel cfg env sw active timeout tr o,
  incl (map fst (ov_states env)) (ov_cluster env) -> In (ov_master env) (ov_cluster env) ->
  runs (optimization_phase fuel cfg env sw active timeout) tr o -> exists a, o = Done a.
Proof. exact optimization_phase_never_crashes. Qed.
Print Assumptions C20_speedup_phase_never_crashes.

(* the background lag checker of every process (LagResetupper.CheckNeedResetup of internal/app/resetup): never crashes, for every
   registry, every master record (missing, dangling, the local host) and every answer of every call - the crash leaf
   "recorded master is not a registered host" was found on the real code and repaired (fix 5ceb11e) - and it only reads *)
Theorem C20_lag_checker_never_crashes : forall bound local m, nopanic (lag_check bound local m).
Proof. exact lag_check_nopanic. Qed.
Print Assumptions C20_lag_checker_never_crashes.

Theorem C20_lag_checker_only_reads : forall bound local m, allcalls (fun _ c => readb c = true) (lag_check bound local m).
Proof. exact lag_check_only_reads. Qed.
Print Assumptions C20_lag_checker_only_reads.
