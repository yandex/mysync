(* C11 - Recovery protocol keeps diverged ex-masters out until proven clean.
   Theorems only.  Model: Procs/Recovery.v (checkRecovery), set_recovery and calc_active_host of
   Procs/ActiveNodes.v, tied to the code by the K2 replay of the real checkRecovery / SetRecovery
   (Corr/C11.v) and of the procedures that mark hosts (C01, C10).  "never promoted while marked"
   follows from the exclusion from the published list (candidates are taken from it: C01) and is
   checked by the monitors of C01/C10; the interleaving with manager iterations is monitor-only. *)
From Coq Require Import ZArith NArith Bool List.
From Mysync Require Import Proofs.SettleProofs Procs.Repair Gtid.Interval Gtid.GtidSet Base.Prog Base.ProgFacts Base.Config
  Procs.NodeOps Procs.ActiveNodes Procs.Switchover Procs.Manager Procs.Recovery Proofs.ManagerProofs Proofs.RecoveryProofs Proofs.PromotedProofs.
Import ListNotations.
Open Scope Z_scope.

(* the host's own check only reads, may write the resetup marker file, and may delete ONE coordination
   key: its own host's mark - never another host's, never anything else *)
Theorem C11_check_touches_only_own_mark : forall me m clk, allcalls (fun _ c => rec_call_ok me c) (check_recovery me m clk).
Proof. exact check_recovery_calls. Qed.
Print Assumptions C11_check_touches_only_own_mark.

(* the mark is cleared only once proven clean - for every response of every call *)
Theorem C11_mark_cleared_only_when_clean : forall me m clk tr o,
  runs (check_recovery me m clk) tr o -> has_ev tr (is_clear me) ->
  exists rs mg master,
    has_ev tr (fun e => ev_call e = FileExists f_resetup /\ ev_resp e <> RBool true) /\
    has_ev tr (fun e => ev_call e = Sql me SShowReplica /\ ev_resp e = RRepl (Some rs)) /\
    has_ev tr (fun e => ev_call e = DcsGet PMaster /\ ev_resp e = RVal (VHost master)) /\
    has_ev tr (fun e => ev_call e = Sql master SGtidExecuted /\ ev_resp e = RGtid mg) /\
    permanently_lost rs mg = false /\
    has_ev tr (fun e => ev_call e = Sql me SIsReadOnly /\ exists s, ev_resp e = RFlags true s) /\
    (master = me \/ has_ev tr (fun e => ev_call e = Sql me SWaitingAck /\ ev_resp e = RBool false)).
Proof. exact mark_cleared_only_when_clean. Qed.
Print Assumptions C11_mark_cleared_only_when_clean.

Theorem C11_clean_means_contained : forall rs mg, permanently_lost rs mg = false ->
  repl_state_of rs <> ReplError /\ behind_or_equal (rs_executed rs) mg = true.
Proof. exact not_lost_means_contained. Qed.
Print Assumptions C11_clean_means_contained.

(* while marked, never in the published list (unless it is the recorded master) *)
Theorem C11_marked_host_is_not_active : forall cfg env recovery mgtid mem h ns,
  h <> ae_master env -> mem_host h recovery = true ->
  calc_active_host cfg env (Some recovery) mgtid mem (h, ns) = Ret (false, mem).
Proof. exact marked_host_is_not_active. Qed.
Print Assumptions C11_marked_host_is_not_active.

(* a host marked for recovery is not in the computed list (C11_marked_host_is_not_active), and only members of the list that performSwitchover is given are ever made writable by it: a marked host is not promoted under a list computed after the mark *)
Theorem C11_only_listed_hosts_are_promoted : forall cfg env sw mem tr o,
  runs (perform_switchover cfg env sw mem) tr o ->
  forall e h, In e tr -> ev_call e = Sql h SSetWritable -> In h (se_active env).
Proof. exact promoted_host_is_listed. Qed.
Print Assumptions C11_only_listed_hosts_are_promoted.

(* "a host found claiming to be master beside the recorded one is marked for recovery": the repair of such a host
   (repairSlaveNode with a state that shows no replication channel) goes on to the marking protocol in every run that
   does not crash - whatever stopping its replication and re-pointing it answered (a re-pointing that fails half way
   leaves a host that no longer looks like a master; it must be marked in this very pass). *)
Theorem C11_stale_master_is_always_marked : forall cfg env h ns mem tr o,
  ns_is_master ns = true -> h <> re_master env ->
  runs (repair_slave_node cfg env h ns mem) tr o -> (exists a, o = Done a) ->
  exists e, In e tr /\ ev_site e = 20082 /\ ev_call e = DcsGet PActiveNodes.
Proof. intros cfg env h ns mem tr o Him _. apply stale_master_marking_attempted, Him. Qed.
Print Assumptions C11_stale_master_is_always_marked.
