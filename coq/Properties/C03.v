(* C03 - Exclusive manager: one lock holder, and only the holder acts.
   Theorems only.  Coordination half: Dcs/ZkModel.v (AcquireLock / ReleaseLock with the lock cache)
   over histories of any length; application half: Procs/Manager.v and Procs/Switchover.v. *)
From Coq Require Import ZArith NArith Bool List.
From Mysync Require Import Gtid.Interval Gtid.GtidSet Base.Prog Base.ProgFacts Base.Config
  Procs.NodeOps Procs.ActiveNodes Procs.Switchover Procs.Manager Proofs.SwitchoverProofs Proofs.ManagerProofs Proofs.LockLost.
From Mysync Require Import Dcs.ZkModel Proofs.ZkProofs.
Import ListNotations.
Open Scope Z_scope.

(* after ANY history in which lock paths are touched only through AcquireLock / ReleaseLock (and reads),
   with any cache TTL, session expiries and reconnects at arbitrary points: if one process is told it holds
   the lock and right afterwards another one is told so, they are the same process *)
Theorem C03_lock_is_exclusive : forall cs p ttl ops c1 c2 rp1 rp2,
  NoDup cs -> (forall c, In c cs -> N.lt c 100) -> Forall (wf_op cs p) ops ->
  In c1 cs -> In c2 cs -> normalize rp1 = p -> normalize rp2 = p ->
  let st := zstates (zinit ttl cs) ops in
  let st1 := fst (zstep st (OAcquire c1 rp1)) in
  snd (zstep st (OAcquire c1 rp1)) = ZBool true ->
  snd (zstep st1 (OAcquire c2 rp2)) = ZBool true ->
  c1 = c2.
Proof. intros cs p ttl ops c1 c2 rp1 rp2 _. apply lock_is_exclusive. Qed.
Print Assumptions C03_lock_is_exclusive.

(* the invariant behind it: a cached belief always has the process' own live lock node behind it *)
Theorem C03_cached_belief_is_backed : forall cs p ttl ops, NoDup cs -> (forall c, In c cs -> N.lt c 100) ->
  Forall (wf_op cs p) ops -> lock_inv cs p (zstates (zinit ttl cs) ops).
Proof. intros cs p ttl ops _. apply lock_inv_reachable. Qed.
Print Assumptions C03_cached_belief_is_backed.

(* never told so after its session was lost unless it re-acquired: the belief is dropped with the session *)
Theorem C03_session_loss_drops_belief : forall st c, zc_cache (cget (zs_clients (fst (zstep st (OExpire c)))) c) = [].
Proof. exact expire_clears_cache. Qed.
Print Assumptions C03_session_loss_drops_belief.

(* releasing never removes a lock owned by another process *)
Theorem C03_release_keeps_foreign_lock : forall st c rp n c',
  tget (zs_tree st) (normalize rp) = Some n -> zn_val n = ZOwner c' -> c <> c' ->
  zs_tree (fst (zstep st (ORelease c rp))) = zs_tree st.
Proof. exact release_keeps_foreign_lock. Qed.
Print Assumptions C03_release_keeps_foreign_lock.

(* only the holder acts: an iteration that is not told it holds the lock issues nothing further *)
Theorem C03_no_lock_no_action : forall cfg env m tr o,
  runs (manager_gates cfg env m) tr o ->
  match tr with
  | e0 :: e1 :: rest =>
      ev_call e0 = DcsConnected /\ ev_call e1 = LockAcquire /\
      (ev_resp e1 <> RBool true -> rest = [] /\ o = Done (GNext NxCandidate, m))
  | [e0] => ev_call e0 = DcsConnected /\ o = Done (GNext NxLost, m)
  | [] => False
  end.
Proof. exact no_lock_no_action. Qed.
Print Assumptions C03_no_lock_no_action.

(* a switchover re-confirms the lock after freezing and again after catch-up, before it promotes (C01's theorem) *)
Theorem C03_switchover_rechecks_lock : forall cfg env sw mem, safe Z lk_step lk_ok 0 (perform_switchover cfg env sw mem).
Proof. exact switchover_lock_rechecks. Qed.
Print Assumptions C03_switchover_rechecks_lock.

(* ... and a process whose lock re-check inside a switchover is refused issues NOTHING further in its handling of
   the request (after the repair 6ae7e63: no failed-attempt record either) - the request is the new manager's *)
Theorem C03_nothing_after_a_refused_recheck : forall cfg env m cs active master sw tr o,
  runs (handle_switchover cfg env m cs active master sw) tr o ->
  forall t1 e t2, tr = t1 ++ e :: t2 -> refused e -> t2 = [].
Proof. exact nothing_after_a_refused_lock. Qed.
Print Assumptions C03_nothing_after_a_refused_recheck.
