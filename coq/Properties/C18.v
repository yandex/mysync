(* C18 - Disk-space guard: read-only at critical usage, hysteresis on return.
   Theorems only; model Procs/DiskGuard.v (repairReadOnlyOnMaster). *)
From Coq Require Import ZArith NArith Bool List.
From Mysync Require Import Gtid.Interval Gtid.GtidSet Base.Prog Base.Config Procs.NodeOps Procs.DiskGuard Proofs.DiskGuardProofs.
Import ListNotations.
Open Scope Z_scope.

(* read-only is issued iff it is needed and the master is not already in the
   required mode; the super flag is the negation of keep-super-writable *)
Theorem C18_read_only_iff : forall cfg master ms states s,
  guard_decide cfg master ms states = GaSetRO s <->
  guard_need_ro cfg master ms states = true /\
  (ns_ro ms && negb (Bool.eqb (c_keep_super_writable cfg) (ns_super_ro ms))) = false /\
  s = negb (c_keep_super_writable cfg).
Proof. exact guard_decide_ro_iff. Qed.
Print Assumptions C18_read_only_iff.

(* writable again iff read-only is not needed, nobody is in the grey zone
   (master <= non-critical and, if semi-sync replicas run, one of them too) and
   the master is currently read-only; otherwise the mode is left untouched *)
Theorem C18_writable_iff : forall cfg master ms states,
  guard_decide cfg master ms states = GaSetWritable <->
  guard_need_ro cfg master ms states = false /\ guard_may_write cfg master ms states = true /\ ns_ro ms = true.
Proof. exact guard_decide_rw_iff. Qed.
Print Assumptions C18_writable_iff.

(* the master-side trigger: some health record of the recorded master at or above critical *)
Theorem C18_master_critical_iff : forall cfg master states,
  g_need_ro (guard_counts_of cfg master states) = true <->
  exists h ns d, In (h, ns) states /\ ns_disk ns = Some d /\ ns_is_master ns = true /\ h = master /\ usage_ge d (c_critical_disk cfg) = true.
Proof. exact guard_master_critical_iff. Qed.
Print Assumptions C18_master_critical_iff.

Theorem C18_usage_is_exact_ratio : forall used total t, 0 < total -> 0 <= used <= total ->
  (usage_ge (used, total) t = true <-> t * total <= 10000 * used).
Proof. intros used total t Ht [_ Hu]. apply usage_ge_spec; assumption. Qed.
Print Assumptions C18_usage_is_exact_ratio.

(* execution, for every response of every call: only the master is addressed,
   only with the statement the decision names; the low-space flag only with the
   value of the change *)
Theorem C18_only_decided_action : forall cfg master ms states tr o,
  runs (repair_read_only_on_master cfg master ms states) tr o ->
  Forall (fun e => guard_call_ok master (guard_decide cfg master ms states) (ev_call e)) tr.
Proof. exact guard_trace_ok. Qed.
Print Assumptions C18_only_decided_action.

Theorem C18_untouched_in_between : forall cfg master ms states,
  guard_decide cfg master ms states = GaNone -> repair_read_only_on_master cfg master ms states = Ret tt.
Proof. exact guard_none_no_calls. Qed.
Print Assumptions C18_untouched_in_between.

Theorem C18_read_only_issued : forall cfg master ms states s tr o,
  guard_decide cfg master ms states = GaSetRO s ->
  runs (repair_read_only_on_master cfg master ms states) tr o ->
  exists e tr', tr = e :: tr' /\ ev_call e = Sql master (SSetRO s).
Proof. exact guard_ro_first_call. Qed.
Print Assumptions C18_read_only_issued.

Theorem C18_writable_issued : forall cfg master ms states tr o,
  guard_decide cfg master ms states = GaSetWritable ->
  runs (repair_read_only_on_master cfg master ms states) tr o ->
  exists e tr', tr = e :: tr' /\ ev_call e = Sql master SSetWritable.
Proof. exact guard_rw_first_call. Qed.
Print Assumptions C18_writable_issued.

(* the flag follows the change: written only right after the statement succeeded *)
Theorem C18_flag_only_after_successful_change : forall cfg master ms states tr o,
  runs (repair_read_only_on_master cfg master ms states) tr o ->
  guard_decide cfg master ms states = GaSetWritable ->
  forall e, In e tr -> (exists v, ev_call e = DcsSet PLowSpace v) ->
  tr = [{| ev_site := 1756; ev_call := Sql master SSetWritable; ev_resp := ROk |}; e] /\ ev_call e = DcsSet PLowSpace (VBool false).
Proof. exact guard_flag_after_success. Qed.
Print Assumptions C18_flag_only_after_successful_change.
