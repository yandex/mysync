(* C04 - Published active list covers every semi-sync acker and matches ack count.
   Theorems only; model Procs/ActiveNodes.v (calcActiveNodes, calcActiveNodesChanges,
   updateActiveNodes, SetRecovery and the semi-sync helpers).

   Status (DESIGN.md section 7/8): the membership rule, the eviction guard, the
   "recovery removes the host from the list first" ordering and the footprint of
   the update are proved for every response of every call.  The clauses
   "(b) after a completed iteration", "no download-lagging replica in the list"
   and "an interrupted update never destroys (a)/(b)" are REFUTED on the real
   code by concrete replays (KNOWN_FINDINGS.json, causes R1-R5); they are decided
   by the implementation-side monitor, not claimed here. *)
From Coq Require Import ZArith NArith Bool List.
From Mysync Require Import Gtid.Interval Gtid.GtidSet Base.Prog Base.ProgFacts Base.Config Procs.NodeOps Procs.ActiveNodes Proofs.ActiveNodesProofs Env.World Proofs.WorldProofs.
Import ListNotations.
Open Scope Z_scope.

(* members are evicted only while the manager can reach the master: in every run
   (any responses, any crash prefix) a write of a list that drops a member of the
   old list is preceded by a successful ping of the master in the same update *)
Theorem C04_evict_needs_master : forall cfg env mem tr o, runs (update_active_nodes cfg env mem) tr o ->
  trace_ok bool (ev_step (ae_master env)) (ev_ok (ae_old_active env)) false tr.
Proof. intros cfg env mem. apply safe_sound, evict_needs_master. Qed.
Print Assumptions C04_evict_needs_master.

(* membership rule: a host other than the master is computed into the list only
   if it is not a cascade replica, not marked for recovery, and - when reachable -
   replicating (both threads) and not split-brained w.r.t. the master's executed
   set; an unreachable host can only be KEPT (it must already be a member) *)
Theorem C04_membership : forall cfg env rec mg mem h ns tr mem',
  runs (calc_active_host cfg env rec mg mem (h, ns)) tr (Done (true, mem')) ->
  h = ae_master env \/
  (ns_is_cascade ns = false /\ on_recovery rec h = false /\
   (ns_ping_ok ns = true ->
      exists rs, ns_slave ns = Some rs /\ repl_state_of rs = ReplRunning /\ split_brained (rs_executed rs) mg (ae_master_uuid env) = false) /\
   (ns_ping_ok ns = false -> In h (ae_old_active env))).
Proof. intros cfg env rec mg mem h ns tr mem' H. exact (rets_sound _ _ (calc_active_host_member cfg env rec mg mem h ns) tr (true, mem') H eq_refl). Qed.
Print Assumptions C04_membership.

(* the update only ever issues semi-sync / replication-restart / durability
   statements, reads, the recovery listing, the list write and the optimisation
   registration - for every response of every call *)
Theorem C04_update_footprint : forall cfg env mem tr o, runs (update_active_nodes cfg env mem) tr o ->
  Forall (fun e => an_call_ok (ev_call e)) tr.
Proof. intros cfg env mem. exact (allcalls_sound _ _ (update_active_nodes_calls cfg env mem)). Qed.
Print Assumptions C04_update_footprint.

(* marking for recovery: the recovery mark of h is created only after a list
   without h was successfully written *)
Theorem C04_recovery_removes_from_list_first : forall h tr o, runs (set_recovery h) tr o ->
  trace_ok bool (sr_step h) (sr_ok h) false tr.
Proof. intros h tr o. apply safe_sound. apply set_recovery_order. Qed.
Print Assumptions C04_recovery_removes_from_list_first.

(* what joining and leaving DO to a replica, executed against the fault-free server of the world model (Env/World.v, tied
   to the fake server by the K4 correspondence): a replica that joins ends with acknowledgement enabled and its receiver
   running from the same source, and the call reports success; a replica that leaves ends with acknowledgement off.
   (Clauses (a),(b) about the whole cluster after an update remain decided on the implementation.) *)
Theorem C04_joining_replica_acknowledges : forall h ss ms mg rs c w,
  w_host w = h -> ns_master_gtid ms = Some mg -> ns_slave ss = Some rs -> s_chan (w_srv w) = Some c ->
  wout (wrun (enable_semi_sync_on_slave h (Some ss) ms) w) = Done None /\
  s_semi_s (w_srv (wworld (wrun (enable_semi_sync_on_slave h (Some ss) ms) w))) = true /\
  s_semi_m (w_srv (wworld (wrun (enable_semi_sync_on_slave h (Some ss) ms) w))) = false /\
  (exists c', s_chan (w_srv (wworld (wrun (enable_semi_sync_on_slave h (Some ss) ms) w))) = Some c' /\ c_io c' = true /\ c_source c' = c_source c).
Proof. exact join_makes_acknowledging. Qed.
Print Assumptions C04_joining_replica_acknowledges.

Theorem C04_leaving_replica_stops_acknowledging : forall h restart c w,
  w_host w = h -> s_chan (w_srv w) = Some c ->
  wout (wrun (disable_semi_sync_on_slave h restart) w) = Done None /\
  s_semi_s (w_srv (wworld (wrun (disable_semi_sync_on_slave h restart) w))) = false.
Proof. exact leave_stops_acknowledging. Qed.
Print Assumptions C04_leaving_replica_stops_acknowledging.
