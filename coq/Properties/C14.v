(* C14 - Candidate selection honours priority within the lag bound.
   Theorems only.  Model: Pure/Desirable.v (getMostDesirableNode,
   getMostPriorityNode, filterOutNodeFromPositions of internal/app/util.go). *)
From Coq Require Import ZArith NArith Bool List.
From Mysync Require Import Gtid.Interval Gtid.GtidSet Proofs.GtidProofs Pure.Desirable Proofs.DesirableProofs.
Import ListNotations.
Open Scope Z_scope.

(* the recursion always terminates: fuel length+1 is never exhausted *)
Theorem C14_terminates : forall fuel ps bound, 0 <= bound -> (length ps < fuel)%nat ->
  most_desirable fuel ps bound <> DesFuel.
Proof. exact most_desirable_terminates. Qed.
Print Assumptions C14_terminates.

Theorem C14_returns_offered_candidate : forall fuel ps bound h,
  most_desirable fuel ps bound = DesFound h -> exists p, In p ps /\ p_host p = h.
Proof. exact most_desirable_member. Qed.
Print Assumptions C14_returns_offered_candidate.

Theorem C14_error_iff_no_candidate : forall fuel ps bound, 0 <= bound -> (length ps < fuel)%nat ->
  (most_desirable fuel ps bound = DesNotFound <-> ps = []).
Proof. exact most_desirable_notfound_iff. Qed.
Print Assumptions C14_error_iff_no_candidate.

Theorem C14_never_the_from_host : forall fuel ps bound from h,
  most_desirable fuel (filter_out_host ps from) bound = DesFound h -> h <> from.
Proof. exact most_desirable_never_from. Qed.
Print Assumptions C14_never_the_from_host.

Theorem C14_top_priority_within_bound_wins : forall fuel ps bound top,
  most_priority ps = Some top -> p_lag top <= bound -> most_desirable (S fuel) ps bound = DesFound (p_host top).
Proof. exact most_desirable_top_within_bound. Qed.
Print Assumptions C14_top_priority_within_bound_wins.

Theorem C14_otherwise_top_or_fresher_by_more_than_bound : forall fuel ps bound top h, 0 <= bound ->
  most_priority ps = Some top -> most_desirable fuel ps bound = DesFound h ->
  h = p_host top \/ exists p, In p ps /\ p_host p = h /\ p_lag p < p_lag top - bound.
Proof. intros fuel ps bound top h _. apply most_desirable_top_or_much_fresher. Qed.
Print Assumptions C14_otherwise_top_or_fresher_by_more_than_bound.

(* the "highest-priority candidate": maximal priority, and inside that priority
   no candidate holds strictly more transactions *)
Theorem C14_top_has_max_priority_and_most_transactions : forall ps top, all_wf ps -> most_priority ps = Some top ->
  In top ps /\
  forall p, In p ps -> p_prio p <= p_prio top /\ (p_prio p = p_prio top -> ~ strictly_more (p_set p) (p_set top)).
Proof. exact most_priority_spec. Qed.
Print Assumptions C14_top_has_max_priority_and_most_transactions.

(* equal priorities and all lags within the bound: the choice is the most recent node *)
Theorem C14_coincides_with_most_recent : forall fuel ps bound h st,
  (forall p q, In p ps -> In q ps -> p_prio p = p_prio q) ->
  (forall p, In p ps -> p_lag p <= bound) ->
  most_recent ps = RecentFound h st ->
  most_desirable (S fuel) ps bound = DesFound h.
Proof. exact desirable_coincides_with_most_recent. Qed.
Print Assumptions C14_coincides_with_most_recent.

Example C14_example :
  let a := {| p_host := 1%N; p_set := [(1%N, [(0%N, [(1, 11)])])]; p_lag := 100; p_prio := 10 |} in
  let b := {| p_host := 2%N; p_set := [(1%N, [(0%N, [(1, 21)])])]; p_lag := 3; p_prio := 5 |} in
  most_desirable 3 [a; b] 50 = DesFound 2%N /\ most_desirable 3 [a; b] 200 = DesFound 1%N.
Proof. vm_compute. split; reflexivity. Qed.

(* "... then with less lag": of all candidates with the top priority and exactly the transactions of the chosen one,
   the chosen one has the least lag - for every list of well-formed positions, in any order *)
Theorem C14_then_less_lag : forall ps top, all_wf ps -> most_priority ps = Some top ->
  forall p, In p ps -> p_prio p = p_prio top -> same (p_set p) (p_set top) -> p_lag top <= p_lag p.
Proof. exact most_priority_least_lag. Qed.
Print Assumptions C14_then_less_lag.
