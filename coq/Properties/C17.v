(* C17 - Offline-mode policy: thresholds, hysteresis and per-zone cap.
   Theorems only; model Procs/OfflineMode.v (repairOfflineMode,
   repairMasterOfflineMode, repairSlaveOfflineMode, OfflineModeFilter). *)
From Coq Require Import ZArith NArith Bool List.
From Mysync Require Import Gtid.Interval Gtid.GtidSet Base.Prog Base.Config Procs.NodeOps Procs.ActiveNodes Procs.Switchover Procs.OfflineMode Proofs.OfflineProofs Procs.Repair Env.World Proofs.WorldProofs.
Import ListNotations.
Open Scope Z_scope.

(* for every response of every call and every value of the per-pass counters:
   a replica is taken offline for lag (site 1644) only when it is online, the
   master is writable, its lag exceeds the enable threshold and the zone filter
   (evaluated with the counters of THIS pass) allows it; as permanently broken
   (site 1679) only when broken and online; it is brought online only when
   offline, not permanently broken and its lag is at or below the disable
   threshold; every statement addresses that replica *)
Theorem C17_replica_statements_are_gated : forall cfg env h ns ms pending tr o,
  runs (repair_slave_offline cfg env h ns ms pending) tr o ->
  Forall (fun e => slave_call_ok cfg env h ns ms pending (ev_site e) (ev_call e)) tr.
Proof. intros. eapply (Base.ProgFacts.allcalls_sound _ _ (slave_offline_calls cfg env h ns ms pending)); eauto. Qed.
Print Assumptions C17_replica_statements_are_gated.

(* hysteresis: between the thresholds nothing is issued *)
Theorem C17_between_thresholds_untouched : forall cfg env h ns ms pending lag,
  slave_lag ns = Some lag -> perm_broken ns = false ->
  c_offline_disable_lag cfg < lag <= c_offline_enable_lag cfg ->
  repair_slave_offline cfg env h ns ms pending = Ret pending.
Proof. exact slave_between_thresholds_untouched. Qed.
Print Assumptions C17_between_thresholds_untouched.

(* the zone filter: floor(100*(offline + pending + 1)/total) <= pct over the
   non-master hosts of the replica's zone *)
Theorem C17_zone_cap : forall cfg env h pending, 0 < c_offline_max_pct cfg < 100 ->
  let az := zone_of env h in
  let same := filter (fun '(x, ns) => negb (ns_is_master ns) && N.eqb (zone_of env x) az) (oe_state env) in
  let total := Z.of_nat (length same) in
  let offline := Z.of_nat (length (filter (fun '(_, ns) => ns_offline ns) same)) in
  (can_set_offline cfg env h pending = true <->
   0 < total /\ (100 * (offline + pending_get az pending + 1)) / total <= c_offline_max_pct cfg).
Proof. exact can_set_offline_spec. Qed.
Print Assumptions C17_zone_cap.

(* the master is only ever set online, only when offline *)
Theorem C17_master_only_set_online : forall h ns tr o, runs (repair_master_offline h ns) tr o ->
  Forall (fun e => master_call_ok h ns (ev_call e)) tr.
Proof. intros. eapply (Base.ProgFacts.allcalls_sound _ _ (master_offline_calls h ns)); eauto. Qed.
Print Assumptions C17_master_only_set_online.

(* ... and not while its recovery mark is read as present *)
Theorem C17_master_marked_for_recovery_stays_offline : forall h ns e1 tr1 v o,
  ns_offline ns = true ->
  runs (repair_master_offline h ns) (e1 :: tr1) o ->
  ev_resp e1 = RVal v ->
  ev_call e1 = DcsGet (PRecovery h) /\ tr1 = [].
Proof. exact master_marked_stays_offline. Qed.
Print Assumptions C17_master_marked_for_recovery_stays_offline.

(* where it leads, executed against the fault-free server of the world model (Env/World.v, tied to the fake server by the
   K4 correspondence): an online replica whose lag exceeds the enable threshold - master writable, replication not
   permanently broken, the zone cap allowing it - IS in offline mode after the pass and the zone's counter of this pass
   went up by one; a replica that is online and within the threshold is not touched at all (no call is issued) *)
Theorem C17_lagging_replica_goes_offline : forall cfg env h ns ms pending lag w,
  w_host w = h -> slave_lag ns = Some lag -> ns_offline ns = false -> ns_ro ms = false ->
  (c_offline_enable_lag cfg <? lag) = true -> can_set_offline cfg env h pending = true -> perm_broken ns = false ->
  wout (wrun (repair_slave_offline cfg env h ns ms pending) w) =
    Done (assoc_set (zone_of env h) (pending_get (zone_of env h) pending + 1) pending) /\
  s_offline (w_srv (wworld (wrun (repair_slave_offline cfg env h ns ms pending) w))) = true /\
  s_ro (w_srv (wworld (wrun (repair_slave_offline cfg env h ns ms pending) w))) = s_ro (w_srv w).
Proof. exact lagging_replica_goes_offline. Qed.
Print Assumptions C17_lagging_replica_goes_offline.

Theorem C17_healthy_online_replica_is_not_touched : forall cfg env h ns ms pending lag w,
  slave_lag ns = Some lag -> ns_offline ns = false -> (c_offline_enable_lag cfg <? lag) = false -> perm_broken ns = false ->
  wrun (repair_slave_offline cfg env h ns ms pending) w = (Done pending, w, []).
Proof. exact healthy_replica_stays_online. Qed.
Print Assumptions C17_healthy_online_replica_is_not_touched.
