(* C05 - Automatic failover is filed only when every gate is open.
   Theorems only.  Model: Procs/Manager.v (stateManager, approveFailover, IssueFailover),
   tied to the code by the K2 replay of the real stateManager (Corr/Mgr.v).
   The theorems are about the two places of the iteration that can file a request
   (failure_detection and, through the same approve_failover, the after-crash check of the
   tail); that no OTHER part of the iteration issues `create switch` is checked on the
   implementation side by the monitor (DESIGN.md section 10: partial). *)
From Coq Require Import ZArith NArith Bool List.
From Mysync Require Import Gtid.Interval Gtid.GtidSet Pure.Quorum Base.Prog Base.ProgFacts Base.Config
  Procs.NodeOps Procs.ActiveNodes Procs.Switchover Procs.Manager Proofs.ManagerProofs Proofs.GatesProofs Procs.MgrQuorum Proofs.MgrQuorumProofs.
Import ListNotations.
Open Scope Z_scope.

(* what an approval implies - for every response of every call: failover enabled; unless the master
   crash-recovered (with resetup) or sits on a read-only filesystem, not every other HA node is still
   replicating and the failure clock has run for the delay; the alive replicas of the published list
   reach the quorum; the last successful automatic failover is at least the cooldown old *)
Theorem C05_approval_means_gates_open : forall cfg cs msd active m master tr,
  runs (approve_failover cfg cs msd active m master) tr (Done true) ->
  c_failover cfg = true /\
  (crash_recovered cfg msd = true \/ ns_fs_ro msd = true \/
   (all_others_replicating cs = false /\
    (c_failover_delay cfg <= 0 \/ failed_at m master = 0 \/ exists t, now_in tr t /\ c_failover_delay cfg <= t - failed_at m master))) /\
  check_quorum (c_semi_sync cfg) (c_wait_count cfg) (Z.of_nat (length active)) (count_alive_ha_slaves_within active cs) = true /\
  last_ok cfg tr.
Proof. exact approve_failover_true. Qed.
Print Assumptions C05_approval_means_gates_open.

(* failure detection files only with light maintenance off, a bad health record and an approval
   obtained in the same run under the clock this iteration keeps; what it files is the automatic
   failover from the recorded master.  (It runs only when no maintenance record and no pending
   request was read: manager_decide.) *)
Theorem C05_detection_files_only_when_approved : forall cfg cs msd active m master light tr o,
  runs (failure_detection cfg cs msd active m master light) tr o ->
  forall e, In e tr -> is_file_request (ev_call e) ->
    light = false /\ (ns_ping_ok msd = false \/ ns_fs_ro msd = true) /\
    (exists t, ev_call e = DcsCreate PSwitch (auto_request master t)) /\
    exists m1 tr_a, runs (approve_failover cfg cs msd active m1 master) tr_a (Done true) /\ incl tr_a tr /\
      (failed_at m master <> 0 -> m1 = m) /\ (failed_at m master = 0 -> exists t, now_in tr t /\ failed_at m1 master = t).
Proof. exact failure_detection_files. Qed.
Print Assumptions C05_detection_files_only_when_approved.

Theorem C05_clock_step : forall cfg cs msd active m master light tr b m',
  runs (failure_detection cfg cs msd active m master light) tr (Done (b, m')) ->
  exists now, failed_at m' master = clock_step (failed_at m master) (is_bad msd, now) /\
              (is_bad msd = true -> failed_at m master = 0 -> now_in tr now).
Proof. exact failure_detection_clock. Qed.
Print Assumptions C05_clock_step.

(* ... and over EVERY history of evaluations by one manager process (a new manager starts from
   clock 0): a running clock is the instant of the first evaluation of the trailing run of bad
   evaluations, i.e. the record was bad at every evaluation since the clock started *)
Theorem C05_clock_over_histories : forall (h : list (bool * Z)) (clk0 : Z),
  Forall (fun ev => snd ev <> 0) h ->
  let clk := fold_left clock_step h clk0 in
  clk <> 0 ->
  (exists pre suf, h = pre ++ suf /\ suf <> [] /\ Forall (fun ev => fst ev = true) suf /\
                   match suf with ev :: _ => clk = snd ev | [] => False end /\
                   match rev pre with ev :: _ => fst ev = false | [] => clk0 = 0 end)
  \/ (Forall (fun ev => fst ev = true) h /\ clk = clk0).
Proof. exact clock_history. Qed.
Print Assumptions C05_clock_over_histories.

(* "A manager that cannot reach the master while the master's own health record is good files nothing
   and performs no repair in that iteration": only the timing bookkeeping is touched and the iteration ends *)
Theorem C05_suspicious_master_does_nothing : forall cfg cs csd active m master light msd ms,
  assoc master csd = Some msd -> is_bad msd = false ->
  assoc master cs = Some ms -> ns_ping_ok ms = false ->
  allcalls (fun _ c => timing_only c) (after_requests cfg cs csd active m master light) /\
  forall tr g m', runs (after_requests cfg cs csd active m master light) tr (Done (g, m')) -> g = GNext NxManager.
Proof. exact suspicious_master_does_nothing. Qed.
Print Assumptions C05_suspicious_master_does_nothing.

(* the whole iteration:
   a request is filed, anywhere in an iteration of stateManager (gates and repair tail), only after the
   maintenance record AND the pending-request key were both read as absent earlier in that iteration *)
Theorem C05_iteration_files_only_with_gates_open : forall cfg env m tr o,
  runs (state_manager cfg env m) tr o ->
  forall e, In e tr -> is_file_request (ev_call e) ->
    (exists gm, In gm tr /\ read_absent PMaintenance gm) /\ (exists gs, In gs tr /\ read_absent PSwitch gs).
Proof. exact iteration_files_only_with_gates_open. Qed.
Print Assumptions C05_iteration_files_only_with_gates_open.

(* before the repair tail the only thing that files is failure detection with light maintenance off
   (hence, by C05_detection_files_only_when_approved, an approval) *)
Theorem C05_gates_file_only_through_detection : forall cfg env m tr o,
  runs (manager_gates cfg env m) tr o ->
  forall e, In e tr -> is_file_request (ev_call e) -> gates_open cfg tr e.
Proof. exact gates_file_only_with_gates_open. Qed.
Print Assumptions C05_gates_file_only_through_detection.

(* in the repair tail the only thing that files is the crash-recovery failover: light maintenance off, an
   approval obtained in the same run, and what is filed is the automatic failover from the recorded master *)
Theorem C05_tail_files_only_when_approved : forall cfg env m c tr o,
  runs (manager_tail cfg env m c) tr o ->
  forall e, In e tr -> is_file_request (ev_call e) ->
    tc_light c = false /\
    (exists t, ev_call e = DcsCreate PSwitch (auto_request (tc_master c) t)) /\
    exists msd m1 tr_a, assoc (tc_master c) (tc_csd c) = Some msd /\
      runs (approve_failover cfg (tc_cs c) msd (tc_active c) m1 (tc_master c)) tr_a (Done true) /\ incl tr_a tr.
Proof. exact tail_files_only_when_approved. Qed.
Print Assumptions C05_tail_files_only_when_approved.

(* the quorum gate counts only what the manager itself reached: a replica of the published list that did not answer the
   manager's ping (refused, timed out, or answered with a "dubious" error - whatever its own health record says), a host
   the manager has no state for, and a host without a replication channel each contribute nothing to the count of alive
   replicas; and the count never exceeds the length of the list *)
Theorem C05_unreachable_replicas_do_not_count_towards_the_quorum : forall h nodes cs ns,
  assoc h cs = Some ns -> ns_ping_ok ns = false ->
  count_alive_ha_slaves_within (h :: nodes) cs = count_alive_ha_slaves_within nodes cs.
Proof. exact unreachable_not_counted_within. Qed.
Print Assumptions C05_unreachable_replicas_do_not_count_towards_the_quorum.

Theorem C05_unknown_and_channelless_hosts_do_not_count : forall h nodes cs,
  (assoc h cs = None \/ exists ns, assoc h cs = Some ns /\ ns_slave ns = None) ->
  count_alive_ha_slaves_within (h :: nodes) cs = count_alive_ha_slaves_within nodes cs.
Proof. exact unknown_or_channelless_not_counted. Qed.
Print Assumptions C05_unknown_and_channelless_hosts_do_not_count.

Theorem C05_quorum_count_is_bounded_by_the_list : forall nodes cs,
  (0 <= count_alive_ha_slaves_within nodes cs <= Z.of_nat (length nodes))%Z.
Proof. exact count_within_le. Qed.
Print Assumptions C05_quorum_count_is_bounded_by_the_list.
