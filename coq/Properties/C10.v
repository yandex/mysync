(* C10 - Repair converges to the canonical topology without changing the master.
   Theorems only; model Procs/Repair.v (repairCluster, repairMasterNode,
   repairSlaveNode, performChangeMaster, TryRepairReplication,
   MarkReplicationRunning).  The safety clauses are proved for every response of
   every call; CONVERGENCE (three fault-free iterations reach the canonical
   topology) is decided by the implementation-side monitor on the fake servers
   (C10 is labelled partial for that clause, DESIGN.md section 10). *)
From Coq Require Import ZArith NArith Bool List.
From Mysync Require Import Gtid.Interval Gtid.GtidSet Base.Prog Base.ProgFacts Base.Config Procs.NodeOps Procs.ActiveNodes Procs.Switchover Procs.Repair Procs.DiskGuard Procs.OfflineMode Env.World Proofs.RepairProofs Proofs.SettleProofs Proofs.WorldProofs.
Import ListNotations.
Open Scope Z_scope.

(* repairing replica h (h <> recorded master), whatever the servers answer:
   - every statement goes to h itself (a registered host of this pass),
   - no SET read_only=0, no write of the recorded master, the only coordination
     writes are those of the recovery protocol,
   - a re-pointing statement never names h itself *)
Theorem C10_replica_repair_footprint : forall cfg env h ns mem tr o, h <> re_master env ->
  runs (repair_slave_node cfg env h ns mem) tr o -> Forall (fun e => rs_ok h (ev_call e)) tr.
Proof. intros cfg env h ns mem tr o Hne H. exact (allcalls_sound _ _ (repair_slave_calls cfg env h ns mem Hne) tr o H). Qed.
Print Assumptions C10_replica_repair_footprint.

(* the replication configuration of a replica is reset only by the reset
   algorithm, selected only under aggressive repair, with the start attempts
   exhausted and the reset attempts below the limit *)
Theorem C10_reset_is_guarded : forall cfg st count, suitable_algo cfg st = Some (AlgReset, count) ->
  c_repair_aggressive cfg = true /\ c_repair_max_attempts cfg <= rp_start_count st /\
  rp_reset_count st < c_repair_max_attempts cfg /\ count = rp_reset_count st.
Proof. exact suitable_algo_reset_guard. Qed.
Print Assumptions C10_reset_is_guarded.

Theorem C10_no_reset_otherwise : forall cfg h m mem st tr o,
  assoc h (rm_repair mem) = Some st -> (forall count, suitable_algo cfg st <> Some (AlgReset, count)) ->
  runs (try_repair_replication cfg h m mem) tr o -> Forall (fun e => no_reset (ev_call e)) tr.
Proof. intros cfg h m mem st tr o Ha Hs H. exact (allcalls_sound _ _ (try_repair_no_reset_unless_allowed cfg h m mem st Ha Hs) tr o H). Qed.
Print Assumptions C10_no_reset_otherwise.

(* "... and bring the master ... to the semi-sync setting implied by the active list": whenever adjustSemiSyncOnMaster
   reports success for a positive count w, the master's health record showed the plugin on or SET ...master_enabled=1
   was answered OK in that run, and it showed the count w or SET ...wait_for_slave_count=w was answered OK - for every
   response of every call.  (End to end - over whole manager iterations from arbitrary starting states - the clause is
   decided on the implementation: TestVerifC10Master.) *)
Theorem C10_master_semisync_setting_is_brought : forall master ms w tr, 0 < w ->
  runs (adjust_semi_sync_on_master master ms w) tr (Done None) ->
  exists en sl cur, ns_semi ms = Some (en, sl, cur) /\
    (cur = w \/ exists e, In e tr /\ ok_call (Sql master (SSetWaitCount w)) e) /\
    (en = true \/ exists e, In e tr /\ ok_call (Sql master SSemiSetMaster) e).
Proof. exact adjust_master_brings_setting. Qed.
Print Assumptions C10_master_semisync_setting_is_brought.

(* where repair LEADS: the convergence step, in a world model:
   Env/World.v is an executable reading of one MySQL server as mysync's statements see and change it (fault-free),
   tied to the fake server of the harness by the correspondence check Corr/World.v (the same statement sequences on
   both).  [wrun p w] runs a program against it. *)

(* what the world produces is one of the runs of the oracle semantics: every theorem about [runs] applies to it *)
Theorem C10_world_run_is_a_run : forall A (p : prog A) w, runs p (wtrace (wrun p w)) (wout (wrun p w)).
Proof. exact @wrun_runs. Qed.
Print Assumptions C10_world_run_is_a_run.

(* what getNodeState reports about the server is what the server is *)
Theorem C10_observation_is_faithful : forall h casc w, w_host w = h ->
  exists ns tr, wrun (get_node_state h casc) w =
                (Done ns, {| w_host := w_host w; w_srv := w_srv w; w_now := w_now w + 1; w_created := w_created w; w_active := w_active w |}, tr)
                /\ observed_as (w_srv w) casc ns.
Proof. exact observe_world. Qed.
Print Assumptions C10_observation_is_faithful.

(* "from any combination of read-only flags, replication sources and thread states ... repeated manager iterations make
   every reachable HA node read-only and - unless its replication is broken - a replica of the recorded master":
   ONE fault-free pass of repairSlaveNode over a reachable HA replica whose replication is not in error leaves the
   server read-only with both threads running from the recorded master, whatever its flags, source (the master,
   another host, none: a stale master) and thread states were; and the pass returns (no crash). *)
Theorem C10_one_repair_pass_makes_a_running_replica : forall cfg env h ns mem w,
  w_host w = h -> h <> re_master env -> observed_as (w_srv w) false ns -> no_repl_error (w_srv w) -> rm_repair mem = [] ->
  (exists a, wout (wrun (repair_slave_node cfg env h ns mem) w) = Done a) /\
  replica_ok (re_master env) (w_srv (wworld (wrun (repair_slave_node cfg env h ns mem) w))).
Proof. exact replica_repair_converges. Qed.
Print Assumptions C10_one_repair_pass_makes_a_running_replica.

(* the premises are satisfiable, and by a server that is NOT yet in the canonical state *)
Example C10_convergence_premises_hold : exists ns, observed_as (w_srv w_example) false ns /\ no_repl_error (w_srv w_example) /\ ~ replica_ok 1%N (w_srv w_example).
Proof. exact world_premises_hold. Qed.

(* ... and a replica that IS in the canonical state (read-only, both threads running from the recorded master) is only
   looked at: its repair issues no statement that changes a server and no coordination write, for every response *)
Theorem C10_converged_replica_is_left_alone : forall cfg env h ns mem rs,
  ns_ro ns = true -> ns_is_master ns = false -> ns_is_cascade ns = false -> ns_slave ns = Some rs ->
  rs_source rs = re_master env -> rs_io rs = true -> rs_sql rs = true ->
  allcalls (fun _ c => looks_only c = true) (repair_slave_node cfg env h ns mem).
Proof. exact converged_replica_left_alone. Qed.
Print Assumptions C10_converged_replica_is_left_alone.

(* "... and bring the master online, writable": with no disk-usage report in the health records (disk pressure is not
   among the dimensions of C10) ONE fault-free pass of repairMasterNode leaves the master with read_only = 0 - and
   super_read_only = 0 - from ANY combination of the two flags, and sends a writable master nothing that changes it *)
Theorem C10_one_repair_pass_makes_the_master_writable : forall cfg env ms w,
  w_host w = re_master env -> ns_ro ms = s_ro (w_srv w) ->
  (forall h ns, In (h, ns) (re_state_dcs env) -> ns_disk ns = None) ->
  wout (wrun (repair_master_node cfg env ms) w) = Done tt /\
  s_ro (w_srv (wworld (wrun (repair_master_node cfg env ms) w))) = false /\
  (s_ro (w_srv w) = true -> s_sro (w_srv (wworld (wrun (repair_master_node cfg env ms) w))) = false) /\
  (s_ro (w_srv w) = false -> w_srv (wworld (wrun (repair_master_node cfg env ms) w)) = w_srv w).
Proof. exact master_repair_unfences. Qed.
Print Assumptions C10_one_repair_pass_makes_the_master_writable.

(* ... and ONE fault-free pass of repairMasterOfflineMode sets an offline master (not marked for recovery) online, leaving
   its read-only flag as it was *)
Theorem C10_one_repair_pass_brings_the_master_online : forall h ns w,
  w_host w = h -> ns_offline ns = s_offline (w_srv w) ->
  wout (wrun (repair_master_offline h ns) w) = Done tt /\
  s_offline (w_srv (wworld (wrun (repair_master_offline h ns) w))) = false /\
  s_ro (w_srv (wworld (wrun (repair_master_offline h ns) w))) = s_ro (w_srv w).
Proof. exact master_offline_repair_brings_online. Qed.
Print Assumptions C10_one_repair_pass_brings_the_master_online.

(* "repeated manager iterations": the canonical state is a FIXED POINT.  From any state (as above) the first pass reaches
   the canonical state, and the next pass - over whatever getNodeState then reports - leaves the server exactly as it is:
   read-only, both threads running from the recorded master.  (By induction every later pass does.) *)
Theorem C10_second_repair_pass_changes_nothing : forall cfg env h ns mem w ns2 mem2,
  w_host w = h -> h <> re_master env -> observed_as (w_srv w) false ns -> no_repl_error (w_srv w) -> rm_repair mem = [] ->
  let w1 := wworld (wrun (repair_slave_node cfg env h ns mem) w) in
  observed_as (w_srv w1) false ns2 ->
  replica_ok (re_master env) (w_srv w1) /\
  w_srv (wworld (wrun (repair_slave_node cfg env h ns2 mem2) w1)) = w_srv w1.
Proof. exact replica_repair_twice. Qed.
Print Assumptions C10_second_repair_pass_changes_nothing.

Theorem C10_canonical_replica_is_a_fixed_point : forall cfg env h ns mem w,
  w_host w = h -> observed_as (w_srv w) false ns -> replica_ok (re_master env) (w_srv w) ->
  w_srv (wworld (wrun (repair_slave_node cfg env h ns mem) w)) = w_srv w.
Proof. intros cfg env h ns mem w _. apply replica_fixed_point. Qed.
Print Assumptions C10_canonical_replica_is_a_fixed_point.
