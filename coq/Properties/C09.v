(* C09 - Maintenance freezes automation; leaving re-learns the real master.
   Theorems only.  Model: Procs/Manager.v (stateMaintenance, stateCandidate, tryLeaveMaintenance,
   leaveMaintenance, ensureCurrentMaster, the maintenance gates of stateManager), tied to the code by
   the K2 replay of the real state handlers (Corr/Mgr.v).  The clause "across restarts and coordination
   outages" and the effect on the servers are decided by the monitor on the fakes' ground truth. *)
From Coq Require Import ZArith NArith Bool List.
From Mysync Require Import Gtid.Interval Gtid.GtidSet Pure.Quorum Base.Prog Base.ProgFacts Base.Config
  Procs.NodeOps Procs.ActiveNodes Procs.Switchover Procs.Manager Proofs.ManagerProofs Proofs.GatesProofs.
Import ListNotations.
Open Scope Z_scope.

(* the paused loop only keeps its marker file and re-reads the record *)
Theorem C09_paused_loop_is_frozen : forall cfg env m tr n m',
  runs (state_maintenance cfg env m) tr (Done (n, m')) ->
  (forall e, In e tr -> ev_call e = DcsGet PMaintenance ->
     ev_resp e <> RErr ENotFound /\ forall mt, ev_resp e = RVal (VMaint mt) -> mt_should_leave mt = false) ->
  n = NxMaintenance /\ m' = m /\ Forall (fun e => frozen_call (ev_call e)) tr.
Proof. exact state_maintenance_frozen. Qed.
Print Assumptions C09_paused_loop_is_frozen.

(* candidates follow once the mode is acknowledged, having only refreshed the registry *)
Theorem C09_candidate_follows : forall m tr n m',
  runs (state_candidate m) tr (Done (n, m')) ->
  (exists e mt, In e tr /\ ev_call e = DcsGet PMaintenance /\ ev_resp e = RVal (VMaint mt) /\ mt_paused mt = true /\ mt_light mt = false) ->
  n = NxMaintenance /\ Forall (fun e => registry_read (ev_call e)) tr.
Proof. exact state_candidate_follows. Qed.
Print Assumptions C09_candidate_follows.

(* light maintenance suppresses failover filing: C05_detection_files_only_when_approved requires light = false *)

(* re-learning the master: recorded only when exactly one alive master exists *)
Theorem C09_relearn_master : forall cs tr r,
  runs (ensure_current_master cs) tr (Done r) ->
  match r with
  | MrOk mm => alive_masters cs = [mm] /\ exists e, tr = [e] /\ ev_call e = DcsSet PMaster (VHost mm) /\ ev_resp e = ROk
  | MrMany => 2 <= Z.of_nat (length (alive_masters cs)) /\ tr = []
  | MrNone => alive_masters cs = [] /\ tr = []
  | MrErr => exists mm, alive_masters cs = [mm] /\ exists e, tr = [e] /\ ev_call e = DcsSet PMaster (VHost mm) /\ ev_resp e <> ROk
  end.
Proof. exact ensure_current_master_spec. Qed.
Print Assumptions C09_relearn_master.

(* leaving succeeds only with exactly one alive master in the freshly read state: it is recorded, the active
   list read back is non-empty, and only then is the record removed *)
Theorem C09_leave_success : forall cfg env m tr m',
  runs (leave_maintenance cfg env m) tr (Done (None, m')) ->
  exists cs mm, alive_masters cs = [mm] /\
    has_ev tr (fun e => ev_call e = DcsSet PMaster (VHost mm) /\ ev_resp e = ROk) /\
    has_ev tr (fun e => ev_call e = DcsGet PActiveNodes /\ exists h l, ev_resp e = RVal (VHosts (h :: l))) /\
    has_ev tr (fun e => ev_call e = DcsDelete PMaintenance /\ ev_resp e = ROk).
Proof. intros cfg env m tr m'. exact (returns_runs _ _ _ _ (leave_maintenance_returns cfg env m)). Qed.
Print Assumptions C09_leave_success.

(* several alive masters: the mode is kept and the emergency marker raised *)
Theorem C09_many_masters_keep_mode : forall cfg env m tr m1,
  runs (leave_maintenance cfg env m) tr (Done (Some 90030, m1)) ->
  has_ev tr (fun e => ev_call e = FileWrite f_emerge) /\ ~ has_ev tr (fun e => ev_call e = DcsDelete PMaintenance).
Proof. intros cfg env m tr m1 H. exact (returns_runs _ _ _ _ (leave_maintenance_returns cfg env m) H eq_refl). Qed.
Print Assumptions C09_many_masters_keep_mode.

(* A process that runs stateManager while full maintenance is acknowledged (it was restarted, or took the lock over)
   only READS - registry, servers, health records, maintenance record - and goes to the paused state; it never
   reaches the master lookup, the request handling or the repair tail.  No hypothesis about the master record is
   left: the first versions of this theorem needed "the master key was read successfully" and then "is present",
   because getCurrentMaster ran BEFORE the maintenance record was read and re-learns and WRITES a master it cannot
   read or find.  Both witnesses reproduced on the real code (C09-K3: failed read, C09-K4: missing key) and were
   repaired in /repo (b339185, 38205c1: the maintenance record is read first). *)
Theorem C09_manager_iteration_is_frozen_when_acknowledged : forall cfg env m tr o,
  runs (manager_gates cfg env m) tr o ->
  (forall e, In e tr -> ev_call e = DcsGet PMaintenance ->
     exists mt, ev_resp e = RVal (VMaint mt) /\ mt_light mt = false /\ mt_paused mt = true) ->
  only_reads tr /\ (forall c m', o <> Done (GTail c, m')) /\
  (forall e, In e tr -> ev_call e = DcsGet PMaintenance -> exists m', o = Done (GNext NxMaintenance, m')).
Proof. exact manager_frozen_when_acknowledged. Qed.
Print Assumptions C09_manager_iteration_is_frozen_when_acknowledged.
