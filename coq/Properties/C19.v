(* C19 - Replication optimisation never leaves untracked relaxed durability.
   Theorems only.  Model: Procs/Optimization.v (Syncer.Sync, Controller.Enable /
   Disable / Wait, the pre-switchover phase) and opt_disable_all in
   Procs/Switchover.v.  The monitor of Proofs/OptimizationProofs.v calls a host
   RESTORED (o_rest) once SET innodb_flush_log_at_trx_commit and then SET
   sync_binlog to the master's values both returned OK on it with no other
   attempt to change either setting on that host in between or afterwards. *)
From Coq Require Import ZArith NArith Bool List.
From Mysync Require Import Gtid.Interval Gtid.GtidSet Base.Prog Base.ProgFacts Base.Hoare Base.Config Procs.NodeOps Procs.ActiveNodes Procs.Switchover Procs.Optimization Proofs.OptimizationProofs Env.World Proofs.WorldProofs.
Import ListNotations.
Open Scope Z_scope.

(* "a registered host is dropped only after its settings were restored (or once it is
   no longer a registered cluster host)" - every run of Sync, every response of every call *)
Theorem C19_sync_drops_only_restored : forall env tr o, runs (opt_sync env) tr o ->
  exists mrs, (Forall (fun e => readcall (ev_call e)) tr \/ master_seen env tr mrs) /\
              trace_ok ost (ostep mrs) (ookc (ov_cluster env)) ost0 tr.
Proof. exact sync_drops_only_restored. Qed.
Print Assumptions C19_sync_drops_only_restored.

(* "replicas without a known lag and replicas whose lag has converged are returned to
   the master's durability settings ..." (after a Sync that returned no error; k is the one
   host the sync keeps) *)
Theorem C19_sync_success_restores : forall env tr, runs (opt_sync env) tr (Done None) ->
  exists mrs k, master_seen env tr mrs /\
    forall h en, observed tr h en ->
      (classify env mrs en (assoc h (ov_states env)) = OcMalf \/ classify env mrs en (assoc h (ov_states env)) = OcOptimized) ->
      mem_host h (ov_cluster env) = true -> Some h <> k ->
      o_rest (fold_steps ost (ostep mrs) ost0 tr) h = true.
Proof. exact sync_success_restores. Qed.
Print Assumptions C19_sync_success_restores.

(* "... and then dropped from the optimisation registry" *)
Theorem C19_sync_success_deregisters : forall env tr, runs (opt_sync env) tr (Done None) ->
  exists mrs, master_seen env tr mrs /\
    forall h en, observed tr h en ->
      (classify env mrs en (assoc h (ov_states env)) = OcMalf \/ classify env mrs en (assoc h (ov_states env)) = OcOptimized) ->
      exists e, In e tr /\ ev_call e = DcsDelete (POptNode h) /\ (ev_resp e = ROk \/ ev_resp e = RErr ENotFound).
Proof. exact sync_success_deregisters. Qed.
Print Assumptions C19_sync_success_deregisters.

Theorem C19_no_lag_is_switched_off : forall env mrs en ns, opt_lag ns = None -> classify env mrs en (Some ns) = OcMalf.
Proof. exact classify_nolag. Qed.
Print Assumptions C19_no_lag_is_switched_off.
Theorem C19_converged_is_switched_off : forall env mrs en ns lag, ns_is_master ns = false -> opt_lag ns = Some lag ->
  (lag < ov_low env \/ (en = false /\ lag < ov_high env)) -> ov_low env <= ov_high env ->
  classify env mrs en (Some ns) = OcOptimized \/ classify env mrs en (Some ns) = OcMalf.
Proof. exact classify_converged. Qed.
Print Assumptions C19_converged_is_switched_off.

(* "at most one replica is left running with relaxed durability settings": in every run
   of Sync, settings other than the master's are given to at most one host k ... *)
Theorem C19_sync_relaxes_at_most_one : forall env tr o, runs (opt_sync env) tr o ->
  exists mrs k, (Forall (fun e => readcall (ev_call e)) tr \/ master_seen env tr mrs) /\
    Forall (fun e => tamper_ok mrs k (ev_call e)) tr.
Proof. exact sync_relaxes_at_most_one. Qed.
Print Assumptions C19_sync_relaxes_at_most_one.

(* ... and, plan given, every other optimising host is restored by a successful sync; the
   hosts it leaves alone are those whose settings already equal the master's *)
Theorem C19_surplus_optimising_hosts_restored : forall env mrs p st,
  wp ost (ostep mrs) (ookc (ov_cluster env)) st (sync_act env mrs p)
     (fun st' e => e = None -> forall h, In h (to_restore p) -> Some h <> kept p -> mem_host h (ov_cluster env) = true -> o_rest st' h = true).
Proof. exact wp_sync_act. Qed.
Print Assumptions C19_surplus_optimising_hosts_restored.
Theorem C19_left_alone_means_equal_settings : forall env mrs en ons, classify env mrs en ons = OcDisabled ->
  en = false /\ exists ns rs, ons = Some ns /\ ns_repl_settings ns = Some rs /\ rs_eqb rs mrs = true.
Proof. exact classify_disabled. Qed.
Print Assumptions C19_left_alone_means_equal_settings.

(* controller.DisableAll (the pre-switchover shut-off): deregisters only restored hosts, and when
   it returns no error every registered candidate was restored *)
Theorem C19_disable_all : forall cluster master nodes tr o, runs (opt_disable_all master nodes) tr o ->
  exists rs, settings_used tr rs /\ trace_ok ost (ostep rs) (ookc cluster) ost0 tr /\
    (o = Done None -> forall h, listed tr nodes h -> mem_host h nodes = true ->
       o_rest (fold_steps ost (ostep rs) ost0 tr) h = true).
Proof. exact disable_all_spec. Qed.
Print Assumptions C19_disable_all.

(* "optimisation is switched off on the candidates before a switchover freezes them": every run
   of performSwitchover is a complete DisableAll over the candidates, without error, followed by
   the rest - or stops there *)
Theorem C19_switchover_disables_first : forall cfg env sw mem tr o, runs (perform_switchover cfg env sw mem) tr o ->
  (* the candidates of the request that are registered hosts *)
  let active := registered_only (map fst (se_all_hosts env)) (switch_candidates env sw) in
  tr = [] \/
  exists tr1 tr2, tr = tr1 ++ tr2 /\
    Forall (fun e => disable_call (ev_call e)) tr1 /\
    (runs (opt_disable_all (se_old_master env) active) tr1 (Done None) \/
     (tr2 = [] /\ exists o1, runs (opt_disable_all_k (mem_host (se_old_master env) (map fst (se_all_hosts env))) (se_old_master env) active) tr1 o1 /\ o1 <> Done None)).
Proof. exact switchover_disables_first. Qed.
Print Assumptions C19_switchover_disables_first.

(* "any pre-switchover speed-up phase has ended, with settings restored, before the freeze" is
   FALSE of the code (known finding C19-F1..F3): a run of the phase that returns normally with the
   target registered, never deregistered, relaxed and not restored *)
Theorem C19_speedup_phase_restores_refuted : forall cfg, c_semi_sync cfg = true ->
  runs (optimization_phase 2 cfg w_env w_sw [1%N; 2%N] (10 * sec)) w_trace (Done tt) /\
  In (ev 50141 (DcsCreate (POptNode 2%N) (VOpt false)) ROk) w_trace /\
  (forall e, In e w_trace -> ev_call e <> DcsDelete (POptNode 2%N)) /\
  o_rest (fold_steps ost (ostep (1, 1)) ost0 w_trace) 2%N = false /\
  In (ev 11152 (Sql 2%N (SSetSyncBinlog 1000)) ROk) w_trace.
Proof. exact phase_leaves_target_relaxed_and_registered_refuted. Qed.
Print Assumptions C19_speedup_phase_restores_refuted.

(* non-vacuity: a successful run of Sync that restores and deregisters a converged host *)
Example C19_sync_success_exists :
  exists tr, runs (opt_sync {| ov_master := 1%N; ov_states := [(1%N, w_ns true None); (2%N, w_ns false (Some 10))]; ov_cluster := [1%N; 2%N]; ov_low := 60; ov_high := 120 |}) tr (Done None)
             /\ observed tr 2%N false.
Proof.
  exists [ ev 50080 (DcsChildren POptNodes) (RHosts [2%N]); ev 30044 (DcsGet (POptNode 2%N)) (RVal (VOpt false));
           ev 11195 (Sql 2%N (SSetFlush 1)) ROk; ev 11199 (Sql 2%N (SSetSyncBinlog 1)) ROk; ev 50125 (DcsDelete (POptNode 2%N)) ROk ].
  split.
  - cbn. repeat (split; [reflexivity|]). split; reflexivity.
  - eexists. split; [right; left; reflexivity|]. split; reflexivity.
Qed.

(* what relaxing and restoring DO to a server, executed against the fault-free server of the world model (Env/World.v,
   tied to the fake server by the K4 correspondence): relaxing sets innodb_flush_log_at_trx_commit = 2 and
   sync_binlog = 1000; restoring sets both to the given (master's) values; and a server relaxed by mysync and then
   restored differs from the server it was in nothing but carrying exactly those two values *)
Theorem C19_relaxing_sets_both_settings : forall h w, w_host w = h ->
  wout (wrun (optimize_replication h) w) = Done None /\
  s_flush (w_srv (wworld (wrun (optimize_replication h) w))) = 2 /\
  s_sync (w_srv (wworld (wrun (optimize_replication h) w))) = 1000.
Proof. intros h w. exact (restore_sets_both _ _ h (2, 1000) w). Qed.
Print Assumptions C19_relaxing_sets_both_settings.

Theorem C19_restoring_sets_both_settings : forall s1 s2 h rs w, w_host w = h ->
  wout (wrun (set_repl_settings s1 s2 h rs) w) = Done None /\
  s_flush (w_srv (wworld (wrun (set_repl_settings s1 s2 h rs) w))) = fst rs /\
  s_sync (w_srv (wworld (wrun (set_repl_settings s1 s2 h rs) w))) = snd rs.
Proof. exact restore_sets_both. Qed.
Print Assumptions C19_restoring_sets_both_settings.

Theorem C19_relax_then_restore_leaves_the_masters_settings : forall s1 s2 h rs w, w_host w = h ->
  w_srv (wworld (wrun (set_repl_settings s1 s2 h rs) (wworld (wrun (optimize_replication h) w)))) =
  with_durability (w_srv w) (fst rs) (snd rs).
Proof. exact relax_then_restore. Qed.
Print Assumptions C19_relax_then_restore_leaves_the_masters_settings.
