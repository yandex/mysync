(* C06 - Every switch request reaches exactly one terminal outcome, in bounded time.
   Theorems only.  Model: Procs/Manager.v (handle_switchover, approve_switchover) and
   Procs/Switchover.v (start/fail/finish_switchover), tied to the code by the K2 replay of the
   real stateManager (Corr/Mgr.v).  The multi-iteration clauses (one manager at a time, no request
   filed over a pending one, outcome recorded once over the whole history) are decided on the
   implementation side by the monitor over histories of iterations. *)
From Coq Require Import ZArith NArith Bool List.
From Mysync Require Import Gtid.Interval Gtid.GtidSet Pure.Quorum Base.Prog Base.ProgFacts Base.Config
  Procs.NodeOps Procs.ActiveNodes Procs.Switchover Procs.Manager Proofs.MasterLast Proofs.ManagerProofs Proofs.OutcomeProofs.
Import ListNotations.
Open Scope Z_scope.

(* terminal bookkeeping: FinishSwitchover removes the request and then records it exactly once - as
   succeeded iff ok - and the record is that same request with its result; if the removal fails nothing
   is recorded.  For every response of every call. *)
Theorem C06_finish_records_exactly_once : forall sw ok tr o, runs (finish_switchover sw ok) tr o ->
  exists t rc,
    let rec := with_result sw ok t rc in
    match switch_writes tr with
    | [d] => ev_call d = DcsDelete PSwitch /\ ev_resp d <> ROk
    | [d; s] => ev_call d = DcsDelete PSwitch /\ ev_resp d = ROk /\
                ev_call s = (if ok then DcsSet PLastSwitch (VSwitch rec) else DcsSet PLastRejected (VSwitch rec))
    | _ => False
    end.
Proof. exact finish_switchover_records. Qed.
Print Assumptions C06_finish_records_exactly_once.

(* each failed attempt is counted, and the request written back is the same request *)
Theorem C06_failed_attempt_is_counted : forall sw tr o, runs (fail_switchover sw) tr o ->
  exists e0 e1, tr = [e0; e1] /\ ev_call e0 = Now /\
    ev_call e1 = DcsSet PSwitch (VSwitch (with_result sw false (now_val e0) (sw_run_count sw + 1))).
Proof. exact fail_switchover_counts. Qed.
Print Assumptions C06_failed_attempt_is_counted.
Theorem C06_written_back_is_same_request : forall sw ok t rc, same_request sw (with_result sw ok t rc).
Proof. exact with_result_same. Qed.
Print Assumptions C06_written_back_is_same_request.

(* the attempt limit: a planned request at or over the limit is rejected - whatever the cluster looks like -
   so over ANY history at most (limit - initial count) attempts are started *)
Theorem C06_attempt_limit_rejects : forall cfg sw active cs,
  is_failover sw = false -> 0 < c_switchover_max_attempts cfg -> c_switchover_max_attempts cfg <= sw_run_count sw ->
  approve_switchover cfg sw active cs = Some 814.
Proof. exact approve_switchover_limit. Qed.
Print Assumptions C06_attempt_limit_rejects.
Theorem C06_attempts_bounded : forall cfg (sw : switch_rec) (n : nat) active cs,
  is_failover sw = false -> 0 < c_switchover_max_attempts cfg ->
  let sw_n := with_result sw false 0 (sw_run_count sw + Z.of_nat n) in
  c_switchover_max_attempts cfg <= sw_run_count sw + Z.of_nat n -> approve_switchover cfg sw_n active cs = Some 814.
Proof. intros cfg sw n active cs Hf Hm sw_n Hn. apply approve_switchover_limit; [exact Hf|exact Hm|exact Hn]. Qed.
Print Assumptions C06_attempts_bounded.

(* an approved request is not re-judged: neither on retry nor when the manager that started the attempt died
   (after the repair of C07-F1 in /repo a started request counts as approved) *)
Theorem C06_not_rejudged : forall cfg sw active cs,
  (0 < sw_run_count sw \/ sw_started sw = true) ->
  (is_failover sw = true \/ c_switchover_max_attempts cfg <= 0 \/ sw_run_count sw < c_switchover_max_attempts cfg) ->
  approve_switchover cfg sw active cs = None.
Proof. exact approve_switchover_not_rejudged. Qed.
Print Assumptions C06_not_rejudged.

(* "never stays pending past the switchover timeout" (after the repair ff31fd9): an iteration that finds the
   request older than the timeout does nothing but finish it as rejected - it removes the request and, when the
   removal succeeded, records it under last_rejected_switch *)
Theorem C06_timeout_terminates : forall cfg env m cs active master sw tr o,
  sw_initiated_at sw <> 0 ->
  runs (handle_switchover cfg env m cs active master sw) tr o ->
  forall e0 tr', tr = e0 :: tr' -> c_switchover_timeout cfg < now_val e0 - sw_initiated_at sw ->
  exists t rc,
    let rec := with_result sw false t rc in
    match switch_writes tr with
    | [d] => ev_call d = DcsDelete PSwitch /\ ev_resp d <> ROk
    | [d; s] => ev_call d = DcsDelete PSwitch /\ ev_resp d = ROk /\ ev_call s = DcsSet PLastRejected (VSwitch rec)
    | _ => False
    end.
Proof. exact timed_out_request_is_rejected. Qed.
Print Assumptions C06_timeout_terminates.

(* "a request reported as succeeded implies the recorded master is the promoted node and is writable":
   performSwitchover reports success only when its last call - the write of the master key with the
   host whose SET read_only=0 was answered OK - was answered OK too ... *)
Theorem C06_success_means_promoted_and_recorded : forall cfg env sw mem tr mem',
  runs (perform_switchover cfg env sw mem) tr (Done (SwOk, mem')) ->
  exists t1 e h w, tr = t1 ++ [e] /\ ev_call e = DcsSet PMaster (VHost h) /\ ev_resp e = ROk /\
                   In w t1 /\ ev_call w = Sql h SSetWritable /\ ev_resp w = ROk.
Proof. exact success_means_master_recorded. Qed.
Print Assumptions C06_success_means_promoted_and_recorded.

(* ... and the iteration that handles a request writes the success record (last_switch) only then *)
Theorem C06_success_record_only_after_promotion : forall cfg env m cs active master sw tr o,
  runs (handle_switchover cfg env m cs active master sw) tr o ->
  no_success_record tr \/ promoted_and_recorded tr.
Proof. exact success_record_means_promoted. Qed.
Print Assumptions C06_success_record_only_after_promotion.
