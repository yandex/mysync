(* C13 - GTID relations and split-brain detection agree with set semantics.
   Theorems only.  [gmem s u t g] = transaction (uuid u, tag t, number g) is in
   set s; [wf] = what the GTID parser produces (distinct uuids/tags, non-empty
   normalized interval slices); subset/same are the set-theoretic relations. *)
From Coq Require Import ZArith NArith Bool List.
From Coq Require Import Permutation.
From Mysync Require Import Gtid.Interval Gtid.GtidSet Proofs.IntervalProofs Proofs.GtidProofs.
Import ListNotations.
Open Scope Z_scope.

Theorem C13_behind_or_equal_iff_subset : forall slave master, wf slave -> wf master ->
  (behind_or_equal slave master = true <-> subset slave master).
Proof. exact behind_or_equal_spec. Qed.
Print Assumptions C13_behind_or_equal_iff_subset.

Theorem C13_ahead_is_negation : forall slave master, wf slave -> wf master ->
  (slave_ahead slave master = true <-> ~ subset slave master).
Proof. exact slave_ahead_spec. Qed.
Print Assumptions C13_ahead_is_negation.

(* interval subtraction is exact and keeps the normal form *)
Theorem C13_slice_minus_exact : forall a b, normalized a -> normalized b ->
  normalized (slice_minus a b) /\ forall g, mem (slice_minus a b) g = mem a g && negb (mem b g).
Proof. intros a b Ha Hb. split; [apply slice_minus_normalized; assumption|intros g; apply slice_minus_mem; assumption]. Qed.
Print Assumptions C13_slice_minus_exact.

Theorem C13_set_minus_exact : forall a b, wf a -> wf b ->
  wf (set_minus a b) /\ forall u t g, gmem (set_minus a b) u t g = gmem a u t g && negb (gmem b u t g).
Proof. exact set_minus_spec. Qed.
Print Assumptions C13_set_minus_exact.

(* the textual difference names exactly the two set differences; its four
   messages correspond to the four emptiness combinations *)
Theorem C13_diff_names_both_differences : forall replica source, wf replica -> wf source ->
  let '(k, ds, dr) := gtid_diff replica source in
  (forall u t g, gmem ds u t g = gmem source u t g && negb (gmem replica u t g)) /\
  (forall u t g, gmem dr u t g = gmem replica u t g && negb (gmem source u t g)) /\
  (k = DiffEqual <-> (subset source replica /\ subset replica source)) /\
  (k = DiffSourceAhead <-> (~ subset source replica /\ subset replica source)) /\
  (k = DiffReplicaAhead <-> (subset source replica /\ ~ subset replica source)) /\
  (k = DiffSplitBrain <-> (~ subset source replica /\ ~ subset replica source)).
Proof. exact gtid_diff_spec. Qed.
Print Assumptions C13_diff_names_both_differences.

Theorem C13_subset_never_split_brained : forall slave master master_uuid, wf slave -> wf master ->
  subset slave master -> split_brained slave master master_uuid = false.
Proof. intros; apply split_brained_subset; assumption. Qed.
Print Assumptions C13_subset_never_split_brained.

Theorem C13_foreign_extra_transaction_is_split_brain : forall slave master master_uuid u t g,
  wf slave -> wf master ->
  gmem slave u t g = true -> gmem master u t g = false -> u <> master_uuid ->
  split_brained slave master master_uuid = true.
Proof. intros; eapply split_brained_foreign; eassumption. Qed.
Print Assumptions C13_foreign_extra_transaction_is_split_brain.

(* choosing the most recent node: the result is one of the nodes and contains
   all the others; split brain is reported exactly when no such node exists *)
Theorem C13_most_recent_contains_all : forall ps h st, all_wf ps -> most_recent ps = RecentFound h st ->
  exists p, In p ps /\ p_host p = h /\ p_set p = st /\ contains_all ps p.
Proof. exact most_recent_found. Qed.
Print Assumptions C13_most_recent_contains_all.

Theorem C13_split_brain_iff_no_maximum : forall ps, all_wf ps -> ps <> nil ->
  (most_recent ps = RecentSplitBrain <-> ~ exists p, In p ps /\ contains_all ps p).
Proof. exact most_recent_splitbrain_iff. Qed.
Print Assumptions C13_split_brain_iff_no_maximum.

(* the interval membership test of the library (binary search restated as first
   match) is subset on normalized slices, and Normalize() keeps the members *)
Theorem C13_slice_contain_iff_subset : forall s sub, normalized s -> nonempty_ivs sub ->
  (slice_contain s sub = true <-> forall g, mem sub g = true -> mem s g = true).
Proof. exact slice_contain_spec. Qed.
Print Assumptions C13_slice_contain_iff_subset.

Theorem C13_normalize_keeps_members : forall s lo, (forall i, In i s -> lo < fst i < snd i) ->
  sep lo (normalize s) /\ forall g, mem (normalize s) g = mem s g.
Proof. exact normalize_spec. Qed.
Print Assumptions C13_normalize_keeps_members.

(* non-vacuity: a concrete well-formed pair with gaps, two uuids and a tag *)
Example C13_example_wf :
  wf [(1%N, [(0%N, [(1, 4); (6, 8)])]); (2%N, [(0%N, [(1, 3)]); (5%N, [(2, 3)])])] /\
  behind_or_equal [(1%N, [(0%N, [(2, 4)])])] [(1%N, [(0%N, [(1, 4); (6, 8)])]); (2%N, [(0%N, [(1, 3)])])] = true.
Proof. split; [apply wfb_sound; vm_compute; reflexivity|vm_compute; reflexivity]. Qed.

(* Equal is exact on well-formed sets: it answers true precisely for sets with the same transactions
   (soundness above; completeness needs the uniqueness of the normalised representation) *)
Theorem C13_equal_iff_same_transactions : forall s o, wf s -> wf o -> (set_equal s o = true <-> same s o).
Proof. exact set_equal_iff. Qed.
Print Assumptions C13_equal_iff_same_transactions.

(* the positions come from ranging over a Go map, in arbitrary order: the split-brain verdict does not depend on the
   order, and the sets returned for two orders hold the same transactions *)
Theorem C13_split_brain_verdict_is_order_independent : forall ps qs, Permutation ps qs -> all_wf ps ->
  (most_recent ps = RecentSplitBrain <-> most_recent qs = RecentSplitBrain).
Proof. exact most_recent_splitbrain_order_independent. Qed.
Print Assumptions C13_split_brain_verdict_is_order_independent.

Theorem C13_most_recent_set_is_order_independent : forall ps qs h st h' st', Permutation ps qs -> all_wf ps ->
  most_recent ps = RecentFound h st -> most_recent qs = RecentFound h' st' -> same st st'.
Proof. exact most_recent_found_order_independent. Qed.
Print Assumptions C13_most_recent_set_is_order_independent.
