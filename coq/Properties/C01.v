(* C01 - Promotion only of a caught-up node backed by a frozen quorum.
   Theorems only; model Procs/Switchover.v (performSwitchover in three stages,
   getNodePositions, waitForCatchUp, performChangeMaster, CheckAsyncSwitchAllowed).
   Oracle semantics: every external call may return ANY response; a crash is a
   prefix of a run.  What is assumed about MySQL itself (a read-only server with
   a stopped IO thread keeps its sets) is DESIGN.md Appendix C and is exercised by
   the implementation-side monitor on the fake servers, not proved here. *)
From Coq Require Import ZArith NArith Bool List.
From Mysync Require Import Gtid.Interval Gtid.GtidSet Pure.Desirable Base.Prog Base.ProgFacts Base.Config
  Procs.NodeOps Procs.ActiveNodes Procs.Switchover Proofs.GtidProofs Proofs.SwitchoverProofs.
Import ListNotations.
Open Scope Z_scope.

(* nothing is re-pointed before the lock was re-confirmed after the freeze, and
   nothing is promoted (RESET REPLICA ALL, SET read_only=0, write of `master`)
   before it was re-confirmed a second time after catch-up - in every run *)
Theorem C01_lock_reconfirmed_before_promotion : forall cfg env sw mem tr o,
  runs (perform_switchover cfg env sw mem) tr o -> trace_ok Z lk_step lk_ok 0 tr.
Proof. intros cfg env sw mem. apply safe_sound, switchover_lock_rechecks. Qed.
Print Assumptions C01_lock_reconfirmed_before_promotion.

(* split brain: when no frozen position contains all the others the rest of the
   procedure is exactly "write the emergency marker, fail" *)
Theorem C01_splitbrain_writes_marker_and_promotes_nothing : forall cfg env sw mem active positions,
  most_recent positions = RecentSplitBrain ->
  sw_after_positions cfg env sw mem active positions = Do 1370 (FileWrite (se_emerge_file env)) (fun _ => Ret (SwErr 1375, mem)).
Proof. exact splitbrain_aborts. Qed.
Print Assumptions C01_splitbrain_writes_marker_and_promotes_nothing.

Theorem C01_splitbrain_iff_no_maximum : forall positions, all_wf positions -> positions <> [] ->
  (most_recent positions = RecentSplitBrain <-> ~ exists p, In p positions /\ contains_all positions p).
Proof. exact most_recent_splitbrain_iff. Qed.
Print Assumptions C01_splitbrain_iff_no_maximum.

(* a node is made writable only after it reported an executed set containing the
   most recent frozen position (executed + received of every frozen member is
   contained in that position by C13) - or the async allowed-lag exception of an
   automatic failover fired *)
Theorem C01_promotion_needs_catch_up : forall cfg env sw mem active positions tr o,
  runs (sw_after_positions cfg env sw mem active positions) tr o ->
  issues_set_writable tr ->
  exists mrh mrs nm, most_recent positions = RecentFound mrh mrs /\ sw_choose cfg sw positions mrh = Some nm /\
                     catch_up_evidence cfg nm mrs tr.
Proof. exact promotion_needs_catch_up. Qed.
Print Assumptions C01_promotion_needs_catch_up.

Theorem C01_most_recent_contains_every_frozen_position : forall ps h st, all_wf ps -> most_recent ps = RecentFound h st ->
  exists p, In p ps /\ p_host p = h /\ p_set p = st /\ contains_all ps p.
Proof. exact most_recent_found. Qed.
Print Assumptions C01_most_recent_contains_every_frozen_position.
