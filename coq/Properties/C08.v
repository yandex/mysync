(* C08 - Lost coordination service: fence the node unless provably safe.
   Theorems only; model: Procs/Lost.v (stateLost, checkHAReplicasRunning,
   stopReplicationOnMaster) over Procs/NodeOps.v (node.go methods).
   [runs p tr o] = p can produce trace tr when every external call may return ANY
   response (failing, timing out, lying); a crash is a prefix of such a trace. *)
From Coq Require Import ZArith NArith Bool List.
From Mysync Require Import Gtid.Interval Gtid.GtidSet Base.Prog Base.Config Procs.NodeOps Procs.Lost Proofs.LostProofs Env.World Proofs.WorldProofs.
Import ListNotations.
Open Scope Z_scope.

(* while disconnected mysync never promotes, re-points, un-fences, starts
   replication, sets anything online, writes to the coordination service or
   touches another host: every call is a read, or one of {read-only, offline,
   semi-sync off, kill session} on the LOCAL node *)
Theorem C08_never_unfences_never_touches_others : forall cfg env tr o,
  runs (state_lost cfg env) tr o -> Forall (fun e => lost_call_ok (le_local env) (ev_call e)) tr.
Proof. exact state_lost_trace_ok. Qed.
Print Assumptions C08_never_unfences_never_touches_others.

(* single-node clusters, non-HA hosts, fencing disabled: nothing but the connectivity test *)
Theorem C08_noop_cases : forall cfg env tr o, lost_static_noop cfg env = true ->
  runs (state_lost cfg env) tr o ->
  exists r, tr = [{| ev_site := 260; ev_call := DcsConnected; ev_resp := r |}] /\
            (o = Done (StCandidate, None) \/ o = Done (StLost, le_lost_at env)).
Proof. exact state_lost_noop. Qed.
Print Assumptions C08_noop_cases.

(* the decision fences iff the node is not (a master with a live group) and the
   postponement does not apply: no unreachable replica, or the loss clock is
   older than the inactivation delay *)
Theorem C08_fence_iff : forall cfg env is_master repl_running has_unreach now now2,
  (exists la, lost_decide cfg env is_master repl_running has_unreach now now2 = LdFence la) <->
  (is_master && repl_running = false) /\
  (has_unreach = false \/ now2 - (match le_lost_at env with Some t => t | None => now end) > c_inactivation_delay cfg).
Proof. exact lost_decide_fence_iff. Qed.
Print Assumptions C08_fence_iff.

Theorem C08_postpone_only_while_unreachable_and_within_delay : forall cfg env is_master repl_running has_unreach now now2 la,
  lost_decide cfg env is_master repl_running has_unreach now now2 = LdPostpone la ->
  has_unreach = true /\ exists t, la = Some t /\ now2 - t <= c_inactivation_delay cfg.
Proof. exact lost_decide_postpone_bounded. Qed.
Print Assumptions C08_postpone_only_while_unreachable_and_within_delay.

(* acting: without a fence decision nothing at all is issued; with it the first
   statement is the read-only statement on the local node *)
Theorem C08_no_fence_no_statement : forall local is_master d, (forall la, d <> LdFence la) ->
  lost_act local is_master d = Ret (StLost, match d with LdPostpone la => la | _ => None end).
Proof. exact lost_act_no_fence. Qed.
Print Assumptions C08_no_fence_no_statement.

Theorem C08_fence_issues_read_only_first : forall local is_master la tr o,
  runs (lost_act local is_master (LdFence la)) tr o ->
  exists e tr', tr = e :: tr' /\ ev_call e = Sql local (SSetRO true).
Proof. exact lost_act_fence_starts_with_read_only. Qed.
Print Assumptions C08_fence_issues_read_only_first.

(* ... and where it leads: executed against the fault-free server of the world model (Env/World.v, tied to the fake
   server by the K4 correspondence) a fence decision leaves the local node read-only with super_read_only set, from ANY
   flags, master or replica; the handler stays in the Lost state and keeps its loss clock *)
Theorem C08_fence_decision_makes_the_node_read_only : forall local is_master la w, w_host w = local ->
  wout (wrun (lost_act local is_master (LdFence la)) w) = Done (StLost, la) /\
  s_ro (w_srv (wworld (wrun (lost_act local is_master (LdFence la)) w))) = true /\
  s_sro (w_srv (wworld (wrun (lost_act local is_master (LdFence la)) w))) = true.
Proof. exact fence_leaves_read_only. Qed.
Print Assumptions C08_fence_decision_makes_the_node_read_only.
