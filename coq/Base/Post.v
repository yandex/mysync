(* [post Q R p]: every crash leaf p can reach lies at a site satisfying Q and every value p can
   return satisfies R - for every response of every call.  Unlike [panics_in] / [rets] the join of
   a parallel section is NOT handed arbitrary results: only lists that carry exactly one result per
   branch, each a value that branch can return.  That is what makes "the state map has an entry
   for every registered host" usable after getClusterStateFromDB / FromDcs. *)
From Coq Require Import ZArith NArith Bool List Lia Permutation.
From Mysync Require Import Base.Prog Base.ProgFacts.
Import ListNotations.

Definition can_ret {A} (p : prog A) (a : A) : Prop := exists tr, runs p tr (Done a).

Fixpoint post {A} (Q : site -> Prop) (R : A -> Prop) (p : prog A) : Prop :=
  match p with
  | Ret a => R a
  | Panic s => Q s
  | Do s c k => forall r, post Q R (k r)
  | Par s bs k =>
      (fix go (bs : list (host * prog resp)) : Prop :=
         match bs with [] => True | (_, b) :: r => post Q (fun _ => True) b /\ go r end) bs
      /\ forall rs, Permutation (map fst bs) (map fst rs) ->
                    (forall h r, In (h, r) rs -> exists b, In (h, b) bs /\ can_ret b r) ->
                    post Q R (k rs)
  end.

(* the join sees one result per branch *)
Lemma runs_par_results_keys {A} s (bs : list (host * prog resp)) (k : list (host * resp) -> prog A) tr o :
  runs (Par s bs k) tr o ->
  (exists rs tk tpar,
     Permutation (map fst bs) (map fst rs) /\
     (forall h r, In (h, r) rs -> exists b, In (h, b) bs /\ can_ret b r) /\
     tr = tpar ++ tk /\ runs (k rs) tk o) \/
  (exists s' h b tb, o = Panicked s' /\ In (h, b) bs /\ runs b tb (Panicked s')).
Proof.
  intros H. apply runs_par in H. destruct H as (ts & rs & [s'|] & tpar & B & _ & H).
  - destruct H as [_ ->]. destruct (branch_panic _ _ _ _ B) as (h & b & tb & Hin & Hp). right. exists s', h, b, tb. auto.
  - destruct H as (tk & rs' & E & Hp & Hk). destruct (branch_results _ _ _ B) as [Hkeys Hres]. left. exists rs', tk, tpar.
    split; [rewrite <- Hkeys; apply Permutation_map; exact Hp|]. split; [|auto].
    intros h r Hin. destruct (Hres h r (Permutation_in _ (Permutation_sym Hp) Hin)) as (b & tb & Hb & Hr). exists b. split; [exact Hb|exists tb; exact Hr].
Qed.

Lemma post_sound {A} (Q : site -> Prop) (R : A -> Prop) (p : prog A) :
  post Q R p -> forall tr o, runs p tr o -> match o with Done a => R a | Panicked s => Q s end.
Proof.
  revert A p R. apply (prog_ind_par (fun A p => forall R, post Q R p -> forall tr o, runs p tr o -> match o with Done a => R a | Panicked s => Q s end)); cbn [post].
  - intros A a R H tr o [_ ->]. exact H.
  - intros A s R H tr o [_ ->]. exact H.
  - intros A s c k IH R H [|e tr'] o Hr; [destruct Hr|]. destruct Hr as (_ & _ & Hr). exact (IH _ R (H _) _ _ Hr).
  - intros A s bs k IHb IHk R [Hbs Hk] tr o Hr.
    destruct (runs_par_results_keys _ _ _ _ _ Hr) as [(rs & tk & tpar & Hperm & Hres & _ & Hrk)|(s' & h & b & tb & -> & Hin & Hrb)].
    + exact (IHk rs R (Hk rs Hperm Hres) _ _ Hrk).
    + exact (IHb h b Hin _ (proj1 (all_branches_In _ _) Hbs h b Hin) _ _ Hrb).
Qed.
Arguments post_sound {A} Q R p.

Corollary post_no_panic {A} (R : A -> Prop) (p : prog A) :
  post (fun _ => False) R p -> forall tr o, runs p tr o -> exists a, o = Done a /\ R a.
Proof.
  intros H tr o Hr. pose proof (post_sound _ _ _ H _ _ Hr) as G. destruct o as [a|s]; [exists a; split; [reflexivity|exact G]|destruct G].
Qed.

Lemma post_bind {A B} Q (R' : A -> Prop) (R : B -> Prop) (p : prog A) (f : A -> prog B) :
  post Q R' p -> (forall a, R' a -> post Q R (f a)) -> post Q R (bind p f).
Proof.
  induction p as [a0|s|s c k IH|s bs k IH] using prog_ind_k; intros Hp Hf; cbn [bind post] in *; auto.
  destruct Hp as [Hb Hk]. split; [exact Hb|]. intros rs Hperm Hres. apply IH; [apply Hk; assumption|exact Hf].
Qed.

Fixpoint panics_in_impl {A} (Q Q' : site -> Prop) (HQ : forall s, Q s -> Q' s) (p : prog A) {struct p} : panics_in Q p -> panics_in Q' p.
Proof.
  clear panics_in_impl. revert A p. apply (prog_ind_par (fun A p => panics_in Q p -> panics_in Q' p)); cbn [panics_in]; auto.
  intros A s bs k IHb IHk [Hb Hk]. split; [exact (all_branches_mono _ _ bs IHb Hb)|intros rs; exact (IHk rs (Hk rs))].
Qed.

Fixpoint post_conseq {A} (Q Q' : site -> Prop) (R R' : A -> Prop) (HQ : forall s, Q s -> Q' s) (HR : forall a, R a -> R' a)
  (p : prog A) {struct p} : post Q R p -> post Q' R' p.
Proof.
  clear post_conseq. revert R R' HR. revert A p.
  apply (prog_ind_par (fun A p => forall R R' : A -> Prop, (forall a, R a -> R' a) -> post Q R p -> post Q' R' p)); cbn [post]; eauto.
  intros A s bs k IHb IHk R R' HR [Hb Hk]. split; [|intros rs Hp Hres; exact (IHk rs R R' HR (Hk rs Hp Hres))].
  exact (all_branches_mono _ _ bs (fun h b Hin => IHb h b Hin _ _ (fun _ t => t)) Hb).
Qed.

Lemma post_weaken {A} Q (R R' : A -> Prop) (p : prog A) : (forall a, R a -> R' a) -> post Q R p -> post Q R' p.
Proof. intros HR. exact (post_conseq Q Q R R' (fun _ H => H) HR p). Qed.

(* the syntactic judgements are special cases *)
Lemma panics_in_post {A} Q (p : prog A) : panics_in Q p -> post Q (fun _ => True) p.
Proof.
  revert A p. apply (prog_ind_par (fun A p => panics_in Q p -> post Q (fun _ => True) p)); cbn [panics_in post]; auto.
  intros A s bs k IHb IHk [Hb Hk]. split; [exact (all_branches_mono _ _ bs IHb Hb)|intros rs _ _; exact (IHk rs (Hk rs))].
Qed.

Lemma post_panics_rets {A} Q (R : A -> Prop) (p : prog A) : panics_in Q p -> rets R p -> post Q R p.
Proof.
  induction p as [a0|s|s c k IH|s bs k IH] using prog_ind_k; cbn [panics_in rets post]; intros H1 H2; auto.
  destruct H1 as [Hb Hk]. split; [exact (all_branches_impl _ _ bs (panics_in_post Q) Hb)|]. intros rs _ _. apply IH; [apply Hk|apply H2].
Qed.

Lemma post_and {A} Q (R1 R2 : A -> Prop) (p : prog A) : post Q R1 p -> post Q R2 p -> post Q (fun a => R1 a /\ R2 a) p.
Proof.
  induction p as [a0|s|s c k IH|s bs k IH] using prog_ind_k; cbn [post]; intros H1 H2; auto.
  destruct H1 as [Hb Hk]. destruct H2 as [_ Hk2]. split; [exact Hb|]. intros rs Hp Hres. apply IH; [apply Hk|apply Hk2]; assumption.
Qed.

Lemma post_forM_ {A} Q (l : list A) (f : A -> prog unit) :
  (forall a, In a l -> post Q (fun _ => True) (f a)) -> post Q (fun _ => True) (forM_ l f).
Proof.
  exact (forM__rule (fun X => @post X Q (fun _ => True)) (fun _ _ => I)
           (fun X Y p g Hp Hg => post_bind Q (fun _ => True) (fun _ => True) p g Hp (fun a _ => Hg a)) l f).
Qed.

Lemma can_ret_rets {A} (R : A -> Prop) (p : prog A) a : rets R p -> can_ret p a -> R a.
Proof. intros H [tr Hr]. exact (rets_sound R p H tr a Hr). Qed.
Lemma branch_result_rets {X} (f : X -> host * prog resp) (Rb : resp -> Prop) l h b r :
  In (h, b) (map f l) -> can_ret b r -> (forall x, rets Rb (snd (f x))) -> Rb r.
Proof.
  intros Hin Hc HR. apply in_map_iff in Hin. destruct Hin as (x & E & _).
  apply (can_ret_rets Rb b r); [|exact Hc]. rewrite <- (f_equal snd E : snd (f x) = b). apply HR.
Qed.

Notation nocrash p := (post (fun _ : site => False) (fun _ => True) p) (only parsing).
Lemma nocrash_of_nopanic {A} (p : prog A) : nopanic p -> nocrash p.
Proof. intros H. apply panics_in_post. apply nopanic_panics_in. exact H. Qed.
Lemma post_of_nopanic {A} (R : A -> Prop) (p : prog A) : nopanic p -> rets R p -> post (fun _ => False) R p.
Proof. intros H1 H2. apply post_panics_rets; [apply nopanic_panics_in; exact H1|exact H2]. Qed.
Lemma post_bind_np {A B} Q (R : B -> Prop) (p : prog A) (f : A -> prog B) :
  nopanic p -> (forall a, post Q R (f a)) -> post Q R (bind p f).
Proof.
  intros Hp Hf. apply (post_bind Q (fun _ => True)); [apply panics_in_post; apply nopanic_panics_in; exact Hp|].
  intros a _. apply Hf.
Qed.
Corollary nocrash_sound {A} (p : prog A) : nocrash p -> forall tr o, runs p tr o -> exists a, o = Done a.
Proof. intros H tr o R. destruct (post_no_panic _ _ H _ _ R) as (a & E & _). exists a. exact E. Qed.
