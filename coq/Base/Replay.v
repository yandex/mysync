(* Executable transcript replay (K2/K3 correspondence): walk a model program
   along the calls the real code was observed to make. *)
From Coq Require Import ZArith NArith Bool List.
From Mysync Require Import Base.Prog.
Import ListNotations.
Open Scope Z_scope.

(* ---- decidable equality on calls (transparent, so that it computes) -------- *)
Definition option_eq_dec {A} (d : forall x y : A, {x = y} + {x <> y}) : forall x y : option A, {x = y} + {x <> y}.
Proof. decide equality. Defined.
Definition prod_eq_dec {A B} (da : forall x y : A, {x = y} + {x <> y}) (db : forall x y : B, {x = y} + {x <> y}) :
  forall x y : A * B, {x = y} + {x <> y}.
Proof. decide equality. Defined.
Definition stmt_eq_dec : forall x y : stmt, {x = y} + {x <> y}.
Proof. decide equality; try apply Z.eq_dec; try apply N.eq_dec; try apply bool_dec. Defined.
Definition dpath_eq_dec : forall x y : dpath, {x = y} + {x <> y}.
Proof. decide equality; try apply Z.eq_dec; try apply N.eq_dec. Defined.
Definition sw_type_eq_dec : forall x y : sw_type, {x = y} + {x <> y}.
Proof. decide equality. Defined.
Definition sw_cause_eq_dec : forall x y : sw_cause, {x = y} + {x <> y}.
Proof. decide equality. Defined.
Definition switch_rec_eq_dec : forall x y : switch_rec, {x = y} + {x <> y}.
Proof.
  decide equality; try apply Z.eq_dec; try apply bool_dec; try apply sw_type_eq_dec; try apply sw_cause_eq_dec;
    try (apply option_eq_dec; apply N.eq_dec);
    try (apply option_eq_dec; apply prod_eq_dec; [apply bool_dec|apply Z.eq_dec]).
Defined.
Definition maint_rec_eq_dec : forall x y : maint_rec, {x = y} + {x <> y}.
Proof. decide equality; apply bool_dec. Defined.
Definition dval_eq_dec : forall x y : dval, {x = y} + {x <> y}.
Proof.
  decide equality; try apply Z.eq_dec; try apply N.eq_dec; try apply bool_dec;
    try apply switch_rec_eq_dec; try apply maint_rec_eq_dec;
    try (apply list_eq_dec; apply N.eq_dec); try (apply option_eq_dec; apply N.eq_dec).
Defined.
Definition call_eq_dec : forall x y : call, {x = y} + {x <> y}.
Proof.
  fix F 1. decide equality; try apply Z.eq_dec; try apply N.eq_dec; try apply stmt_eq_dec; try apply dpath_eq_dec; try apply dval_eq_dec.
Defined.
Definition call_eqb (a b : call) : bool := if call_eq_dec a b then true else false.
(* observed entry [obs] answers expected call [c]; a refused connection answers any statement to that host *)
Definition call_matches (obs c : call) : bool :=
  call_eqb obs c ||
  match obs, c with
  | Sql h SRefused, Sql h' _ => N.eqb h h'
  | _, _ => false
  end.

(* ---- footprints: which fake observed the call ----------------------------- *)
Inductive fprint := FpHost (h : host) | FpBg (h : host) | FpDcs (p : dpath) | FpLock | FpSilent.
Definition footprint (c : call) : fprint :=
  match c with
  | Sql h SProcessIds | Sql h (SKill _) => FpBg h     (* issued by the concurrent kill loop *)
  | Sql h _ => FpHost h
  | DcsGet p | DcsSet p _ | DcsCreate p _ | DcsDelete p | DcsChildren p | DcsSetEph p _ => FpDcs p
  | LockAcquire | LockRelease | DcsConnected => FpLock
  | Now | Sleep _ | FileExists _ | FileWrite _ | FileRemove _ | Peek _ => FpSilent
  end.
Definition fprint_eqb (a b : fprint) : bool :=
  match a, b with
  | FpHost x, FpHost y => N.eqb x y
  | FpBg x, FpBg y => N.eqb x y
  | FpDcs p, FpDcs q => if dpath_eq_dec p q then true else false
  | FpLock, FpLock => true
  | FpSilent, FpSilent => true
  | _, _ => false
  end.

(* one observed external call *)
Record tentry := { te_idx : Z; te_call : call; te_resp : resp; te_time : Z }.

Record rstate := {
  r_rest : list tentry;        (* not yet matched, in observation order *)
  r_last : Z;                  (* index of the last matched entry on this control path *)
  r_clock : Z;                 (* virtual time (ns) *)
  r_files : list (N * bool);   (* simulated marker files *)
  r_sites : list site }.       (* visited sites, most recent first *)

Inductive rresult (A : Type) :=
| RDone (a : A) (st : rstate)
| RPanic (s : site) (st : rstate)
| RMismatch (s : site) (expected : call) (got : option tentry) (st : rstate).
Arguments RDone {A}. Arguments RPanic {A}. Arguments RMismatch {A}.

(* first entry with the given footprint, and the list without it *)
Fixpoint take_fp (fp : fprint) (l : list tentry) : option (tentry * list tentry) :=
  match l with
  | [] => None
  | e :: r =>
      if fprint_eqb (footprint (te_call e)) fp then Some (e, r)
      else match take_fp fp r with Some (x, r') => Some (x, e :: r') | None => None end
  end.

Fixpoint file_get (f : N) (l : list (N * bool)) : bool :=
  match l with [] => false | (g, b) :: r => if N.eqb f g then b else file_get f r end.
Fixpoint file_set (f : N) (v : bool) (l : list (N * bool)) : list (N * bool) :=
  match l with [] => [(f, v)] | (g, b) :: r => if N.eqb f g then (g, v) :: r else (g, b) :: file_set f v r end.

Definition visit (s : site) (st : rstate) : rstate :=
  {| r_rest := r_rest st; r_last := r_last st; r_clock := r_clock st; r_files := r_files st; r_sites := s :: r_sites st |}.

(* results of a parallel section are handed over in completion order: by the
   index of each branch's last observed call (stable for branches without calls) *)
Fixpoint insert_by_idx {X} (x : Z * X) (l : list (Z * X)) : list (Z * X) :=
  match l with
  | [] => [x]
  | y :: r => if fst y <=? fst x then y :: insert_by_idx x r else x :: l
  end.
Definition sort_by_idx {X} (l : list (Z * X)) : list (Z * X) := fold_left (fun acc x => insert_by_idx x acc) l [].

(* The order in which the results of a parallel section reach the join is not observable in the
   transcript when two branches finish close together (the goroutine that made its last call first is not
   necessarily the one that delivers its result first).  Where the order matters (ties between equally good
   candidates are broken by list order) the checkers retry with a rank: the hosts of [fst rank] first, those
   of [snd rank] last, the others in completion order. *)
Definition in_hosts (h : host) (l : list host) : bool := existsb (N.eqb h) l.
Definition rank_sort {X} (rank : list host * list host) (l : list (host * X)) : list (host * X) :=
  flat_map (fun h => filter (fun x => N.eqb (fst x) h) l) (fst rank)
  ++ filter (fun x => negb (in_hosts (fst x) (fst rank)) && negb (in_hosts (fst x) (snd rank))) l
  ++ flat_map (fun h => filter (fun x => N.eqb (fst x) h) l) (snd rank).

Fixpoint replay_r {A} (rank : list host * list host) (p : prog A) (st : rstate) : rresult A :=
  match p with
  | Ret a => RDone a st
  | Panic s => RPanic s st
  | Do s c k =>
      let st := visit s st in
      match c with
      | Now => replay_r rank (k (RZ (r_clock st))) st
      | Sleep d => replay_r rank (k ROk) {| r_rest := r_rest st; r_last := r_last st; r_clock := r_clock st + d; r_files := r_files st; r_sites := r_sites st |}
      | FileExists f => replay_r rank (k (RBool (file_get f (r_files st)))) st
      | Peek c' => replay_r rank (k (RBool (match take_fp (footprint c') (r_rest st) with Some _ => true | None => false end))) st
      | FileWrite f => replay_r rank (k ROk) {| r_rest := r_rest st; r_last := r_last st; r_clock := r_clock st; r_files := file_set f true (r_files st); r_sites := r_sites st |}
      | FileRemove f => replay_r rank (k ROk) {| r_rest := r_rest st; r_last := r_last st; r_clock := r_clock st; r_files := file_set f false (r_files st); r_sites := r_sites st |}
      | _ =>
          match take_fp (footprint c) (r_rest st) with
          | None => RMismatch s c None st
          | Some (e, rest) =>
              if call_matches (te_call e) c && (r_last st <? te_idx e) then
                replay_r rank (k (te_resp e))
                  {| r_rest := rest; r_last := te_idx e; r_clock := Z.max (r_clock st) (te_time e); r_files := r_files st; r_sites := r_sites st |}
              else RMismatch s c (Some e) st
          end
      end
  | Par s bs k =>
      let st0 := visit s st in
      (* branches are replayed one after another over the shared remainder; each
         starts from the index reached before the fork; afterwards the join
         continues from the maximal index / time reached by any branch *)
      (fix branches (bs : list (host * prog resp)) (cur : rstate) (mx_last mx_clock : Z) (acc : list (Z * (host * resp))) : rresult A :=
         match bs with
         | [] => replay_r rank (k (rank_sort rank (map snd (sort_by_idx (rev acc))))) {| r_rest := r_rest cur; r_last := mx_last; r_clock := mx_clock; r_files := r_files cur; r_sites := r_sites cur |}
         | (h, b) :: bs' =>
             match replay_r rank b {| r_rest := r_rest cur; r_last := r_last st0; r_clock := r_clock st0; r_files := r_files cur; r_sites := r_sites cur |} with
             | RDone r st' => branches bs' st' (Z.max mx_last (r_last st')) (Z.max mx_clock (r_clock st')) ((r_last st', (h, r)) :: acc)
             | RPanic s' st' => RPanic s' st'
             | RMismatch s' c g st' => RMismatch s' c g st'
             end
         end) bs st0 (r_last st0) (r_clock st0) []
  end.

Definition replay {A} (p : prog A) (st : rstate) : rresult A := replay_r ([], []) p st.
(* rank candidates for a set of hosts: completion order, each host first, each host last *)
Definition rank_candidates (hosts : list host) : list (list host * list host) :=
  ([], []) :: map (fun h => ([h], [])) hosts ++ map (fun h => ([], [h])) hosts.

(* ---- replay of a run that was cut short ------------------------------------
   The process died: every thread of it is stopped at some external call.  A call whose
   footprint has no entry left blocks its thread; the sibling branches of a parallel
   section are still walked (they may have got further); a section with a blocked
   branch blocks the join. *)
Inductive presult (A : Type) :=
| PDone (a : A) (st : rstate)
| PBlocked (st : rstate)
| PPanic (s : site) (st : rstate)
| PBad (s : site) (expected : call) (got : tentry) (st : rstate).
Arguments PDone {A}. Arguments PBlocked {A}. Arguments PPanic {A}. Arguments PBad {A}.

Fixpoint replay_prefix_r {A} (rank : list host * list host) (p : prog A) (st : rstate) : presult A :=
  match p with
  | Ret a => PDone a st
  | Panic s => PPanic s st
  | Do s c k =>
      let st := visit s st in
      match c with
      | Now => replay_prefix_r rank (k (RZ (r_clock st))) st
      | Sleep d => replay_prefix_r rank (k ROk) {| r_rest := r_rest st; r_last := r_last st; r_clock := r_clock st + d; r_files := r_files st; r_sites := r_sites st |}
      | FileExists f => replay_prefix_r rank (k (RBool (file_get f (r_files st)))) st
      | Peek c' => replay_prefix_r rank (k (RBool (match take_fp (footprint c') (r_rest st) with Some _ => true | None => false end))) st
      | FileWrite f => replay_prefix_r rank (k ROk) {| r_rest := r_rest st; r_last := r_last st; r_clock := r_clock st; r_files := file_set f true (r_files st); r_sites := r_sites st |}
      | FileRemove f => replay_prefix_r rank (k ROk) {| r_rest := r_rest st; r_last := r_last st; r_clock := r_clock st; r_files := file_set f false (r_files st); r_sites := r_sites st |}
      | _ =>
          match take_fp (footprint c) (r_rest st) with
          | None => PBlocked st
          | Some (e, rest) =>
              if call_matches (te_call e) c && (r_last st <? te_idx e) then
                replay_prefix_r rank (k (te_resp e))
                  {| r_rest := rest; r_last := te_idx e; r_clock := Z.max (r_clock st) (te_time e); r_files := r_files st; r_sites := r_sites st |}
              else PBad s c e st
          end
      end
  | Par s bs k =>
      let st0 := visit s st in
      (fix branches (bs : list (host * prog resp)) (cur : rstate) (mx_last mx_clock : Z) (blocked : bool) (acc : list (Z * (host * resp))) : presult A :=
         match bs with
         | [] => if blocked then PBlocked cur
                 else replay_prefix_r rank (k (rank_sort rank (map snd (sort_by_idx (rev acc))))) {| r_rest := r_rest cur; r_last := mx_last; r_clock := mx_clock; r_files := r_files cur; r_sites := r_sites cur |}
         | (h, b) :: bs' =>
             match replay_prefix_r rank b {| r_rest := r_rest cur; r_last := r_last st0; r_clock := r_clock st0; r_files := r_files cur; r_sites := r_sites cur |} with
             | PDone r st' => branches bs' st' (Z.max mx_last (r_last st')) (Z.max mx_clock (r_clock st')) blocked ((r_last st', (h, r)) :: acc)
             | PBlocked st' => branches bs' st' mx_last mx_clock true acc
             | PPanic s' st' => PPanic s' st'
             | PBad s' c g st' => PBad s' c g st'
             end
         end) bs st0 (r_last st0) (r_clock st0) false []
  end.

Definition replay_prefix {A} (p : prog A) (st : rstate) : presult A := replay_prefix_r ([], []) p st.

Definition init_rstate (tr : list tentry) (t0 : Z) (files : list (N * bool)) : rstate :=
  {| r_rest := tr; r_last := -1; r_clock := t0; r_files := files; r_sites := [] |}.
