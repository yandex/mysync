(* Metatheory of Base/Prog.v used by every procedure theorem.  [runs] and the judgements treat the branches of a
   parallel section with a local [fix] over the branch list; [all_branches_In], [runs_par] and [prog_ind_par] make
   that invisible to proofs. *)
From Coq Require Import ZArith NArith Bool List Lia Permutation.
From Mysync Require Import Base.Prog.
Import ListNotations.

Definition ev_ok (P : site -> call -> Prop) (e : event) : Prop := P (ev_site e) (ev_call e).

Notation all_branches J bs :=
  ((fix go (l : list (host * prog resp)) : Prop := match l with [] => True | (_, b) :: r => J b /\ go r end) bs).

Lemma all_branches_In (J : prog resp -> Prop) bs : all_branches J bs <-> forall h b, In (h, b) bs -> J b.
Proof.
  induction bs as [|[h0 b0] r IH]; [split; [intros _ h b []|intros _; exact I]|]. rewrite IH. split.
  - intros [H0 Hr] h b [E|Hin]; [injection E as _ <-; exact H0|exact (Hr h b Hin)].
  - intros H. split; [apply (H h0); left; reflexivity|intros h b Hin; apply (H h); right; exact Hin].
Qed.

Lemma all_branches_mapf {X} (J : prog resp -> Prop) (f : X -> host * prog resp) l :
  (forall x, In x l -> J (snd (f x))) -> all_branches J (map f l).
Proof.
  intros H. apply all_branches_In. intros h b Hin. apply in_map_iff in Hin. destruct Hin as (x & E & Hx).
  specialize (H x Hx). rewrite E in H. exact H.
Qed.
Lemma all_branches_map {X} (J : prog resp -> Prop) (l : list X) (h : X -> host) (f : X -> prog resp) :
  (forall x, In x l -> J (f x)) -> all_branches J (map (fun x => (h x, f x)) l).
Proof. exact (all_branches_mapf J (fun x => (h x, f x)) l). Qed.

(* the Par case of an implication between judgements proved by [prog_ind_par] *)
Lemma all_branches_mono (J J' : prog resp -> Prop) bs :
  (forall h b, In (h, b) bs -> J b -> J' b) -> all_branches J bs -> all_branches J' bs.
Proof. intros H. rewrite !all_branches_In. intros K h b Hin. exact (H h b Hin (K h b Hin)). Qed.
Lemma all_branches_impl (J J' : prog resp -> Prop) bs : (forall b, J b -> J' b) -> all_branches J bs -> all_branches J' bs.
Proof. intros H. apply all_branches_mono. intros _ b _. apply H. Qed.

(* over the continuation structure (branches of Par are not visited) *)
Definition prog_ind_k {A} (Pr : prog A -> Prop)
  (h1 : forall a, Pr (Ret a)) (h2 : forall s, Pr (Panic s))
  (h3 : forall s c k, (forall r, Pr (k r)) -> Pr (Do s c k))
  (h4 : forall s bs k, (forall rs, Pr (k rs)) -> Pr (Par s bs k)) : forall p, Pr p :=
  fix F (p : prog A) : Pr p :=
    match p with
    | Ret a => h1 a
    | Panic s => h2 s
    | Do s c k => h3 s c k (fun r => F (k r))
    | Par s bs k => h4 s bs k (fun rs => F (k rs))
    end.

(* branches included: the predicate ranges over programs of every result type *)
Definition prog_ind_par (Pr : forall A, prog A -> Prop)
  (h1 : forall A a, Pr A (Ret a)) (h2 : forall A s, Pr A (Panic s))
  (h3 : forall A s c k, (forall r, Pr A (k r)) -> Pr A (Do s c k))
  (h4 : forall A s bs k, (forall h b, In (h, b) bs -> Pr resp b) -> (forall rs, Pr A (k rs)) -> Pr A (Par s bs k)) :
  forall A p, Pr A p :=
  fix F A (p : prog A) : Pr A p :=
    match p with
    | Ret a => h1 A a
    | Panic s => h2 A s
    | Do s c k => h3 A s c k (fun r => F A (k r))
    | Par s bs k =>
        h4 A s bs k
          ((fix G (l : list (host * prog resp)) : forall h b, In (h, b) l -> Pr resp b :=
              match l with
              | [] => fun h b H => match H with end
              | (h0, b0) :: r => fun h b H =>
                  match H with
                  | or_introl E => eq_ind b0 (Pr resp) (F resp b0) b (f_equal snd E)
                  | or_intror H' => G r h b H'
                  end
              end) bs)
          (fun rs => F A (k rs))
    end.

Lemma interleave2_Forall (Q : event -> Prop) a : forall b t,
  interleave2 a b t -> Forall Q a -> Forall Q b -> Forall Q t.
Proof.
  induction a as [|x a' IH]; intros b t H Ha Hb; cbn in H.
  - subst. exact Hb.
  - revert t H. induction b as [|y b' IHb]; intros t H; cbn in H.
    + subst. exact Ha.
    + destruct t as [|z t']; [destruct H|]. destruct H as [[-> H]|[-> H]].
      * constructor; [inversion Ha; assumption|]. apply (IH (y :: b')); auto. inversion Ha; assumption.
      * constructor; [inversion Hb; assumption|]. apply IHb; [inversion Hb; assumption|exact H].
Qed.

Lemma interleave_Forall (Q : event -> Prop) ts : forall t,
  interleave ts t -> Forall (Forall Q) ts -> Forall Q t.
Proof.
  induction ts as [|a r IH]; intros t H Hall; cbn in H.
  - subst. constructor.
  - destruct H as (tr & H1 & H2). inversion Hall; subst.
    eapply interleave2_Forall; eauto.
Qed.

Lemma interleave2_app a : forall b, interleave2 a b (a ++ b).
Proof.
  induction a as [|x a' IH]; intros b; cbn [interleave2 app]; [reflexivity|].
  destruct b as [|y b']; [rewrite app_nil_r; reflexivity|]. left. split; [reflexivity|]. apply IH.
Qed.
Lemma interleave2_app_r a : forall b, interleave2 a b (b ++ a).
Proof.
  destruct a as [|x a']; intros b; [cbn; apply app_nil_r|]. induction b as [|y b' IH]; [reflexivity|].
  cbn. right. split; [reflexivity|exact IH].
Qed.
Lemma interleave_concat ts : interleave ts (concat ts).
Proof.
  induction ts as [|a r IH]; cbn [interleave concat]; [reflexivity|]. exists (concat r). split; [exact IH|apply interleave2_app].
Qed.

(* The branches run in list order until one panics: their traces, the results of those that
   returned, and the site of the panic if there was one. *)
Inductive branch_runs : list (host * prog resp) -> list trace -> list (host * resp) -> option site -> Prop :=
| br_nil : branch_runs [] [] [] None
| br_done h b bs tb r ts rs o : runs b tb (Done r) -> branch_runs bs ts rs o ->
    branch_runs ((h, b) :: bs) (tb :: ts) ((h, r) :: rs) o
| br_panic h b bs tb s : runs b tb (Panicked s) -> branch_runs ((h, b) :: bs) [tb] [] (Some s).

Lemma runs_par {A} s bs (k : list (host * resp) -> prog A) tr o :
  runs (Par s bs k) tr o <->
  exists ts rs ob tpar, branch_runs bs ts rs ob /\ interleave ts tpar /\
    match ob with
    | None => exists tk rs', tr = tpar ++ tk /\ Permutation rs rs' /\ runs (k rs') tk o
    | Some s' => tr = tpar /\ o = Panicked s'
    end.
Proof.
  cbn [runs].
  (* the accumulators of the nested fix hold, reversed, what the branches before bs0 did *)
  enough (G : forall bs0 acc_tr acc_rs,
    (fix branches (bs : list (host * prog resp)) (acc_tr : list trace) (acc_rs : list (host * resp)) : Prop :=
       match bs with
       | [] => exists tpar tk rs, interleave (rev acc_tr) tpar /\ tr = tpar ++ tk /\ Permutation (rev acc_rs) rs /\ runs (k rs) tk o
       | (h, b) :: bs' =>
           exists tb ob, runs b tb ob /\
             match ob with
             | Done r => branches bs' (tb :: acc_tr) ((h, r) :: acc_rs)
             | Panicked s' => o = Panicked s' /\ exists tpar, interleave (rev (tb :: acc_tr)) tpar /\ tr = tpar
             end
       end) bs0 acc_tr acc_rs <->
    exists ts rs ob tpar, branch_runs bs0 ts rs ob /\ interleave (rev acc_tr ++ ts) tpar /\
      match ob with
      | None => exists tk rs', tr = tpar ++ tk /\ Permutation (rev acc_rs ++ rs) rs' /\ runs (k rs') tk o
      | Some s' => tr = tpar /\ o = Panicked s'
      end) by exact (G bs [] []).
  induction bs0 as [|[h b] bs' IH]; intros acc_tr acc_rs.
  - split.
    + intros (tpar & tk & rs & Hi & E & Hp & Hk). exists [], [], None, tpar. rewrite !app_nil_r.
      split; [constructor|]. split; [exact Hi|]. exists tk, rs. auto.
    + intros (ts & rs & ob & tpar & B & Hi & H). inversion B; subst. rewrite !app_nil_r in *.
      destruct H as (tk & rs' & E & Hp & Hk). exists tpar, tk, rs'. auto.
  - split.
    + intros (tb & ob & Hb & H). destruct ob as [r|s'].
      * apply IH in H. destruct H as (ts & rs & ob & tpar & B & Hi & H). cbn [rev] in Hi, H. rewrite <- app_assoc in Hi, H.
        exists (tb :: ts), ((h, r) :: rs), ob, tpar. split; [constructor; assumption|]. split; [exact Hi|exact H].
      * destruct H as (-> & tpar & Hi & ->). exists [tb], [], (Some s'), tpar. split; [constructor; exact Hb|]. auto.
    + intros (ts & rs & ob & tpar & B & Hi & H). inversion B; subst.
      * exists tb, (Done r). split; [assumption|]. apply IH. exists ts0, rs0, ob, tpar. cbn [rev]. rewrite <- !app_assoc. auto.
      * destruct H as [-> ->]. exists tb, (Panicked s0). split; [assumption|]. split; [reflexivity|]. exists tpar. auto.
Qed.

Lemma branch_traces (Q : event -> Prop) bs ts rs ob tpar :
  (forall h b tb o, In (h, b) bs -> runs b tb o -> Forall Q tb) -> branch_runs bs ts rs ob -> interleave ts tpar -> Forall Q tpar.
Proof.
  intros H B Hi. apply (interleave_Forall Q ts tpar Hi). clear Hi. induction B as [|h b bs tb r ts rs o Hb B IH|h b bs tb s Hb].
  - constructor.
  - constructor; [apply (H h b tb (Done r)); [left; reflexivity|exact Hb]|]. apply IH. intros h' b' t' o' Hin. apply (H h'). right. exact Hin.
  - constructor; [apply (H h b tb (Panicked s)); [left; reflexivity|exact Hb]|constructor].
Qed.

Lemma branch_results bs ts rs : branch_runs bs ts rs None ->
  map fst rs = map fst bs /\ forall h r, In (h, r) rs -> exists b tb, In (h, b) bs /\ runs b tb (Done r).
Proof.
  intros B. remember None as ob eqn:E. induction B as [|h b bs tb r ts rs o Hb B IH|]; [split; [reflexivity|intros h r []]| |discriminate E].
  destruct (IH E) as [K1 K2]. split; [cbn; rewrite K1; reflexivity|].
  intros h' r' [Ei|Hin]; [injection Ei as <- <-; exists b, tb; split; [left; reflexivity|exact Hb]|].
  destruct (K2 h' r' Hin) as (b' & t' & Hb' & Hr'). exists b', t'. split; [right; exact Hb'|exact Hr'].
Qed.

Lemma branch_panic bs ts rs s : branch_runs bs ts rs (Some s) -> exists h b tb, In (h, b) bs /\ runs b tb (Panicked s).
Proof.
  intros B. remember (Some s) as ob eqn:E. induction B as [| h b bs tb r ts rs o Hb B IH | h b bs tb s0 Hb]; [discriminate E| |].
  - destruct (IH E) as (h' & b' & t' & Hin & Hr). exists h', b', t'. split; [right; exact Hin|exact Hr].
  - injection E as ->. exists h, b, tb. split; [left; reflexivity|exact Hb].
Qed.

Lemma runs_par_results {A} s (bs : list (host * prog resp)) (k : list (host * resp) -> prog A) tr o :
  runs (Par s bs k) tr o ->
  (exists rs tk tpar,
     (forall h r, In (h, r) rs -> exists b tb, In (h, b) bs /\ runs b tb (Done r)) /\
     tr = tpar ++ tk /\ runs (k rs) tk o) \/
  (exists s', o = Panicked s').
Proof.
  intros H. apply runs_par in H. destruct H as (ts & rs & [s'|] & tpar & B & _ & H); [right; exists s'; apply H|].
  destruct H as (tk & rs' & E & Hp & Hk). left. exists rs', tk, tpar. split; [|auto].
  intros h r Hin. apply (proj2 (branch_results _ _ _ B)). exact (Permutation_in _ (Permutation_sym Hp) Hin).
Qed.

Lemma runs_bind_inv {A B} (p : prog A) (f : A -> prog B) : forall tr o,
  runs (bind p f) tr o ->
  (exists tr1 tr2 a, runs p tr1 (Done a) /\ runs (f a) tr2 o /\ tr = tr1 ++ tr2) \/
  (exists s, runs p tr (Panicked s) /\ o = Panicked s).
Proof.
  induction p as [a|s|s c k IH|s bs k IH] using prog_ind_k; intros tr o H; cbn [bind] in H.
  - left. exists [], tr, a. cbn. auto.
  - cbn in H. destruct H as [-> ->]. right. exists s. cbn. auto.
  - cbn [runs] in H. destruct tr as [|e tr']; [destruct H|]. destruct H as (Hs & Hc & Hr).
    destruct (IH (ev_resp e) _ _ Hr) as [(tr1 & tr2 & a & H1 & H2 & E)|(s' & H1 & E)].
    + left. exists (e :: tr1), tr2, a. cbn [runs]. subst. auto.
    + right. exists s'. cbn [runs]. auto.
  - apply runs_par in H. destruct H as (ts & rs & ob & tpar & Hb & Hi & H). destruct ob as [s'|].
    + destruct H as [-> ->]. right. exists s'. split; [|reflexivity]. apply runs_par. exists ts, rs, (Some s'), tpar. auto.
    + destruct H as (tk & rs' & -> & Hp & Hk). destruct (IH rs' _ _ Hk) as [(t1 & t2 & a & K1 & K2 & ->)|(s' & K1 & ->)].
      * left. exists (tpar ++ t1), t2, a. split; [|split; [exact K2|apply app_assoc]].
        apply runs_par. exists ts, rs, None, tpar. split; [exact Hb|]. split; [exact Hi|]. exists t1, rs'. auto.
      * right. exists s'. split; [|reflexivity]. apply runs_par. exists ts, rs, None, tpar. split; [exact Hb|]. split; [exact Hi|]. exists tk, rs'. auto.
Qed.

Lemma runs_bind_done {A B} (p : prog A) (f : A -> prog B) tr b : runs (bind p f) tr (Done b) ->
  exists t1 t2 a, runs p t1 (Done a) /\ runs (f a) t2 (Done b) /\ tr = t1 ++ t2.
Proof. intros H. destruct (runs_bind_inv _ _ _ _ H) as [K|(s & _ & K)]; [exact K|discriminate K]. Qed.

Lemma run_ret {A} (a b : A) tr : runs (Ret a) tr (Done b) -> tr = [] /\ a = b.
Proof. cbn. intros [-> H]. inversion H. auto. Qed.

Lemma runs_bind_ret {A B} (p : prog A) (g : A -> B) tr o : runs (bind p (fun a => Ret (g a))) tr o -> exists o', runs p tr o'.
Proof.
  intros R. destruct (runs_bind_inv _ _ _ _ R) as [(t1 & t2 & a & R1 & [-> _] & ->)|(s & R1 & _)]; [rewrite app_nil_r|]; eauto.
Qed.

Definition head_call {A} (p : prog A) : option call := match p with Do _ c _ => Some c | _ => None end.
Lemma runs_head {A} (p : prog A) c tr o : head_call p = Some c -> runs p tr o ->
  exists e tr', tr = e :: tr' /\ ev_call e = c.
Proof.
  destruct p as [a|s|s c0 k|s bs k]; cbn [head_call]; intros Hh Hr; try discriminate.
  inversion Hh; subst. cbn [runs] in Hr. destruct tr as [|e tr']; [destruct Hr|]. destruct Hr as (_ & Hc & _). eauto.
Qed.

Lemma allcalls_sound P {A} (p : prog A) : allcalls P p -> forall tr o, runs p tr o -> Forall (ev_ok P) tr.
Proof.
  revert A p. apply (prog_ind_par (fun A p => allcalls P p -> forall tr o, runs p tr o -> Forall (ev_ok P) tr)).
  - intros A a _ tr o [-> _]. constructor.
  - intros A s _ tr o [-> _]. constructor.
  - intros A s c k IH [Hc Hk] [|e tr'] o Hr; [destruct Hr|]. destruct Hr as (Hs & Hcall & Hrest). constructor.
    + unfold ev_ok. rewrite Hs, Hcall. exact Hc.
    + exact (IH _ (Hk _) _ _ Hrest).
  - intros A s bs k IHb IHk [Hb Hk] tr o Hr. apply runs_par in Hr. destruct Hr as (ts & rs & ob & tpar & B & Hi & Hr).
    pose proof (branch_traces _ _ _ _ _ _ (fun h b tb o' Hin => IHb h b Hin (proj1 (all_branches_In _ _) Hb h b Hin) tb o') B Hi) as Hpar.
    destruct ob as [s'|]; [destruct Hr as [-> _]; exact Hpar|].
    destruct Hr as (tk & rs' & -> & _ & Hrk). apply Forall_app. split; [exact Hpar|exact (IHk _ (Hk _) _ _ Hrk)].
Qed.
Arguments allcalls_sound P {A} p.

Lemma par_footprint P bs ts rs ob tpar :
  all_branches (allcalls P) bs -> branch_runs bs ts rs ob -> interleave ts tpar -> Forall (ev_ok P) tpar.
Proof.
  intros Hb. apply branch_traces. intros h b tb o Hin. exact (allcalls_sound P b (proj1 (all_branches_In _ _) Hb h b Hin) tb o).
Qed.

Lemma runs_par_split {A} (P : site -> call -> Prop) s (bs : list (host * prog resp)) (k : list (host * resp) -> prog A) tr o :
  (fix go (bs : list (host * prog resp)) : Prop :=
     match bs with [] => True | (_, b) :: r => allcalls P b /\ go r end) bs ->
  runs (Par s bs k) tr o ->
  (exists rs tk tpar, tr = tpar ++ tk /\ Forall (ev_ok P) tpar /\ runs (k rs) tk o) \/
  (Forall (ev_ok P) tr /\ exists s', o = Panicked s').
Proof.
  intros Hbs H. apply runs_par in H. destruct H as (ts & rs & ob & tpar & B & Hi & H).
  pose proof (par_footprint P bs ts rs ob tpar Hbs B Hi) as Hpar.
  destruct ob as [s'|]; [destruct H as [-> ->]; right; eauto|].
  destruct H as (tk & rs' & E & _ & Hk). left. exists rs', tk, tpar. auto.
Qed.

Lemma runs_bind_clean {A B} P (p : prog A) (f : A -> prog B) tr o : allcalls P p -> runs (bind p f) tr o ->
  (exists t1 t2 a, tr = t1 ++ t2 /\ Forall (ev_ok P) t1 /\ runs p t1 (Done a) /\ runs (f a) t2 o) \/
  (Forall (ev_ok P) tr /\ exists s, o = Panicked s).
Proof.
  intros Hp H. destruct (runs_bind_inv _ _ _ _ H) as [(t1 & t2 & a & R1 & R2 & ->)|(s & R1 & ->)].
  - left. exists t1, t2, a. pose proof (allcalls_sound P p Hp _ _ R1). auto.
  - right. split; [exact (allcalls_sound P p Hp _ _ R1)|eauto].
Qed.

Lemma allcalls_bind {A B} P (p : prog A) (f : A -> prog B) :
  allcalls P p -> (forall a, allcalls P (f a)) -> allcalls P (bind p f).
Proof.
  induction p as [a|s|s c k IH|s bs k IH] using prog_ind_k; intros Hp Hf; cbn in *; auto.
  - destruct Hp as [Hc Hk]. split; auto.
  - destruct Hp as [Hb Hk]. split; auto.
Qed.

(* a call: one layer only, whatever the continuation starts with *)
Lemma allcalls_do {A} (P : site -> call -> Prop) s c (k : resp -> prog A) : P s c -> (forall r, allcalls P (k r)) -> allcalls P (Do s c k).
Proof. exact (@conj _ _). Qed.

Lemma allcalls_impl {A} (P Q : site -> call -> Prop) : (forall s c, P s c -> Q s c) ->
  forall (p : prog A), allcalls P p -> allcalls Q p.
Proof.
  intros HPQ. revert A. apply (prog_ind_par (fun A p => allcalls P p -> allcalls Q p)); cbn [allcalls]; auto.
  - intros A s c k IH [Kc Kk]. split; [apply HPQ; exact Kc|]. intros r. apply IH. apply Kk.
  - intros A s bs k IHb IHk [Kb Kk]. split; [exact (all_branches_mono _ _ bs IHb Kb)|intros rs; apply IHk; apply Kk].
Qed.

Lemma allcalls_True {A} (p : prog A) : allcalls (fun _ _ => True) p.
Proof.
  revert A p. apply (prog_ind_par (fun A p => allcalls (fun _ _ => True) p)); cbn [allcalls]; auto.
  intros A s bs k IHb IHk. split; [apply all_branches_In; exact IHb|exact IHk].
Qed.

Lemma nopanic_bind {A B} (p : prog A) (f : A -> prog B) :
  nopanic p -> (forall a, nopanic (f a)) -> nopanic (bind p f).
Proof.
  induction p as [a|s|s c k IH|s bs k IH] using prog_ind_k; intros Hp Hf; cbn in *; auto.
  destruct Hp as [Hb Hk]. split; auto.
Qed.

Lemma nopanic_do {A} s c (k : resp -> prog A) : (forall r, nopanic (k r)) -> nopanic (Do s c k).
Proof. exact (fun H => H). Qed.

(* [panics_in Q p]: every crash leaf of the program lies at a site satisfying Q *)
Fixpoint panics_in {A} (Q : site -> Prop) (p : prog A) : Prop :=
  match p with
  | Ret _ => True
  | Panic s => Q s
  | Do s c k => forall r, panics_in Q (k r)
  | Par s bs k =>
      (fix go (bs : list (host * prog resp)) : Prop :=
         match bs with [] => True | (_, b) :: r => panics_in Q b /\ go r end) bs
      /\ forall rs, panics_in Q (k rs)
  end.

Lemma panics_in_sound {A} (Q : site -> Prop) (p : prog A) : panics_in Q p -> forall tr s, runs p tr (Panicked s) -> Q s.
Proof.
  revert A p. apply (prog_ind_par (fun A p => panics_in Q p -> forall tr s, runs p tr (Panicked s) -> Q s)); cbn [panics_in].
  - intros A a _ tr s [_ E]. discriminate E.
  - intros A s0 H tr s [_ E]. injection E as <-. exact H.
  - intros A s0 c k IH H [|e tr'] s Hr; [destruct Hr|]. destruct Hr as (_ & _ & Hrest). exact (IH _ (H _) _ _ Hrest).
  - intros A s0 bs k IHb IHk [Hb Hk] tr s Hr. apply runs_par in Hr. destruct Hr as (ts & rs & [s'|] & tpar & B & _ & Hr).
    + destruct Hr as [_ E]. injection E as <-. destruct (branch_panic _ _ _ _ B) as (h & b & tb & Hin & Hp).
      exact (IHb h b Hin (proj1 (all_branches_In _ _) Hb h b Hin) _ _ Hp).
    + destruct Hr as (tk & rs' & _ & _ & Hrk). exact (IHk _ (Hk _) _ _ Hrk).
Qed.

Lemma panics_in_bind {A B} Q (p : prog A) (f : A -> prog B) :
  panics_in Q p -> (forall a, panics_in Q (f a)) -> panics_in Q (bind p f).
Proof.
  induction p as [a|s|s c k IH|s bs k IH] using prog_ind_k; intros Hp Hf; cbn in *; auto.
  destruct Hp as [Hb Hk]. split; auto.
Qed.
Lemma panics_in_do {A} Q s c (k : resp -> prog A) : (forall r, panics_in Q (k r)) -> panics_in Q (Do s c k).
Proof. exact (fun H => H). Qed.
Lemma nopanic_panics_in {A} (Q : site -> Prop) (p : prog A) : nopanic p -> panics_in Q p.
Proof.
  revert A p. apply (prog_ind_par (fun A p => nopanic p -> panics_in Q p)); cbn [nopanic panics_in]; auto.
  - intros A s [].
  - intros A s bs k IHb IHk [Hb Hk]. split; [exact (all_branches_mono _ _ bs IHb Hb)|intros rs; apply IHk; apply Hk].
Qed.

Lemma nopanic_sound {A} (p : prog A) : nopanic p -> forall tr o, runs p tr o -> exists a, o = Done a.
Proof.
  intros H tr [a|s] R; [eauto|]. destruct (panics_in_sound (fun _ => False) p (nopanic_panics_in _ p H) tr s R).
Qed.

(* [rets Q p]: every value the program can return satisfies Q *)
Fixpoint rets {A} (Q : A -> Prop) (p : prog A) : Prop :=
  match p with
  | Ret a => Q a
  | Panic _ => True
  | Do s c k => forall r, rets Q (k r)
  | Par s bs k => forall rs, rets Q (k rs)
  end.
Lemma rets_sound {A} (Q : A -> Prop) (p : prog A) : rets Q p -> forall tr a, runs p tr (Done a) -> Q a.
Proof.
  induction p as [a0|s|s c k IH|s bs k IH] using prog_ind_k; cbn [rets]; intros H tr a R.
  - cbn in R. destruct R as [_ E]. inversion E; subst. exact H.
  - cbn in R. destruct R as [_ E]. discriminate E.
  - cbn [runs] in R. destruct tr as [|e tr']; [destruct R|]. destruct R as (_ & _ & R). exact (IH _ (H _) _ _ R).
  - destruct (runs_par_results _ _ _ _ _ R) as [(rs & tk & tpar & _ & _ & Rk)|(s' & E)]; [|discriminate E].
    exact (IH rs (H rs) _ _ Rk).
Qed.
Lemma rets_impl {A} (Q Q' : A -> Prop) (p : prog A) : (forall a, Q a -> Q' a) -> rets Q p -> rets Q' p.
Proof. intros H. induction p as [a0|s|s c k IH|s bs k IH] using prog_ind_k; cbn [rets]; auto. Qed.
Lemma rets_bind {A B} (Q : B -> Prop) (p : prog A) (f : A -> prog B) :
  (forall a, rets Q (f a)) -> rets Q (bind p f).
Proof.
  induction p as [a0|s|s c k IH|s bs k IH] using prog_ind_k; intros H; cbn [bind rets]; auto.
Qed.

Lemma rets_bind2 {A B} (R' : A -> Prop) (R : B -> Prop) (p : prog A) (f : A -> prog B) :
  rets R' p -> (forall a, R' a -> rets R (f a)) -> rets R (bind p f).
Proof.
  induction p as [a0|s|s c k IH|s bs k IH] using prog_ind_k; cbn [bind rets]; intros H1 H2; auto.
Qed.

(* A [let] of the model that [cbv beta delta [f]] has kept folded (unfolded, a local function is walked once
   per use) becomes a variable of the walk: with its defining equation, or known by a predicate Q.
   [open_let] turns a goal [J (let x := c in body)] into [forall x, H -> J (body x)]; H is [x = c] for nopanic,
   [True] for allcalls. *)
Lemma nopanic_let {A B} (c : B) (body : B -> prog A) : (forall x, x = c -> nopanic (body x)) -> nopanic (let x := c in body x).
Proof. intros H. exact (H c eq_refl). Qed.
Lemma allcalls_let {A B} (P : site -> call -> Prop) (Q : B -> Prop) (c : B) (body : B -> prog A) :
  Q c -> (forall x, Q x -> allcalls P (body x)) -> allcalls P (let x := c in body x).
Proof. intros Hc H. exact (H c Hc). Qed.
Ltac open_let :=
  match goal with
  | |- nopanic (let x := ?c in @?b x) => apply (nopanic_let c b); cbv beta
  | |- allcalls ?P (let x := ?c in @?b x) => apply (allcalls_let P (fun _ => True) c b I); cbv beta
  end.

(* the loops: any judgement J with the rules for [Ret] and [bind] passes through [forM_] and [forM] *)
Section ForM.
Variable J : forall X, prog X -> Prop.
Hypothesis Jret : forall X (x : X), J X (Ret x).
Hypothesis Jbind : forall X Y (p : prog X) (f : X -> prog Y), J X p -> (forall a, J Y (f a)) -> J Y (bind p f).
Lemma forM__rule {A} (l : list A) (f : A -> prog unit) : (forall x, In x l -> J unit (f x)) -> J unit (forM_ l f).
Proof.
  induction l as [|x r IH]; intros H; cbn [forM_]; [apply Jret|].
  apply Jbind; [apply H; left; reflexivity|]. intros _. apply IH. intros y Hy. apply H. right. exact Hy.
Qed.
Lemma forM_rule {A B} (l : list A) (f : A -> prog B) : (forall x, In x l -> J B (f x)) -> J (list B) (forM l f).
Proof.
  induction l as [|x r IH]; intros H; cbn [forM]; [apply Jret|].
  apply Jbind; [apply H; left; reflexivity|]. intros b.
  apply Jbind; [apply IH; intros y Hy; apply H; right; exact Hy|]. intros bs. apply Jret.
Qed.
End ForM.

Lemma allcalls_forM_ {A} P (l : list A) (f : A -> prog unit) :
  (forall x, In x l -> allcalls P (f x)) -> allcalls P (forM_ l f).
Proof. exact (forM__rule (fun X => @allcalls X P) (fun _ _ => I) (fun X Y => @allcalls_bind X Y P) l f). Qed.
Lemma allcalls_forM {A B} P (l : list A) (f : A -> prog B) :
  (forall x, In x l -> allcalls P (f x)) -> allcalls P (forM l f).
Proof. exact (forM_rule (fun X => @allcalls X P) (fun _ _ => I) (fun X Y => @allcalls_bind X Y P) l f). Qed.
Lemma nopanic_forM {A B} (l : list A) (f : A -> prog B) :
  (forall x, In x l -> nopanic (f x)) -> nopanic (forM l f).
Proof. exact (forM_rule (@nopanic) (fun _ _ => I) (@nopanic_bind) l f). Qed.
Lemma nopanic_forM_ {A} (l : list A) (f : A -> prog unit) :
  (forall x, In x l -> nopanic (f x)) -> nopanic (forM_ l f).
Proof. exact (forM__rule (@nopanic) (fun _ _ => I) (@nopanic_bind) l f). Qed.

(* ---- procedures that are one call and a decoding of its answer (exec_, ping, now_, dcs_set_, ...) --------
   They need no unfolding: an instance [prim s c (f args)] per procedure, in the hint database [prim],
   gives their footprint, their crash-freedom and the shape of their runs. *)
Definition prim {A} (s : site) (c : call) (p : prog A) : Prop := exists k, p = Do s c k /\ forall r, exists a, k r = Ret a.
Create HintDb prim discriminated.
(* proves an instance: the procedure unfolds to one [Do], every answer is decoded to a [Ret] *)
Ltac prim_tac := eexists; split; [reflexivity|]; intros r; cbv beta; repeat match goal with |- context [match ?x with _ => _ end] => destruct x end; eexists; reflexivity.

Lemma prim_allcalls (P : site -> call -> Prop) {A} s c (p : prog A) : prim s c p -> P s c -> allcalls P p.
Proof. intros (k & -> & Hk) Hc. split; [exact Hc|]. intros r. destruct (Hk r) as [a ->]. exact I. Qed.
Lemma prim_nopanic {A} s c (p : prog A) : prim s c p -> nopanic p.
Proof. intros (k & -> & Hk) r. destruct (Hk r) as [a ->]. exact I. Qed.
Lemma prim_runs_bind {A B} s c (p : prog A) (f : A -> prog B) tr o : prim s c p -> runs (bind p f) tr o ->
  exists e tr' a, tr = e :: tr' /\ ev_call e = c /\ runs p [e] (Done a) /\ runs (f a) tr' o.
Proof.
  intros (k & -> & Hk). cbn [bind runs]. destruct tr as [|e tr']; [intros []|]. intros (Es & Ec & R).
  destruct (Hk (ev_resp e)) as [a Ea]. rewrite Ea in R. exists e, tr', a. cbn [runs]. rewrite Ea. cbn. repeat split; assumption.
Qed.

(* the answers to a read that the procedures tell apart, without going through all the others *)
Lemma unless_not_found {X} (g : resp) (a b : X) (Q : X -> Prop) : Q a -> Q b -> Q (match g with RErr ENotFound => a | _ => b end).
Proof. intros Ha Hb. destruct g as [[]| | | | | | | | | | | | | |]; assumption. Qed.
Lemma pending_request_cases {X} (r : resp) (a : switch_rec -> X) (b c : X) (Q : X -> Prop) :
  (forall sw, Q (a sw)) -> (r = RErr ENotFound -> Q b) -> Q c -> Q (match r with RVal (VSwitch sw) => a sw | RErr ENotFound => b | _ => c end).
Proof. intros Ha Hb Hc. destruct r as [[]| | | | | | | | | | |[]| | |]; first [apply Ha|exact (Hb eq_refl)|exact Hc]. Qed.
Lemma last_shutdown_cases {X} (r : resp) (a : Z -> X) (b c d : X) (Q : X -> Prop) : (forall t, Q (a t)) -> Q b -> Q c -> Q d ->
  Q (match r with RVal (VTime t) => a t | RErr ENotFound => b | RErr _ => c | _ => d end).
Proof. intros Ha Hb Hc Hd. destruct r as [[]| | | | | | | | | | |[]| | |]; first [apply Ha|assumption]. Qed.

Lemma maint_record_cases {X} (r : resp) (a : maint_rec -> X) (b c : X) (Q : X -> Prop) :
  (forall mt, r = RVal (VMaint mt) -> Q (a mt)) -> (r = RErr ENotFound -> Q b) -> ((forall mt, r <> RVal (VMaint mt)) -> Q c) ->
  Q (match r with RVal (VMaint mt) => a mt | RErr ENotFound => b | _ => c end).
Proof.
  intros Ha Hb Hc.
  destruct r as [[]| | | | | | | | | | |[]| | |]; first [exact (Ha _ eq_refl)|exact (Hb eq_refl)|apply Hc; discriminate].
Qed.
Lemma active_list_cases {X} (r : resp) (a b c : X) (Q : X -> Prop) :
  (forall h l, r = RVal (VHosts (h :: l)) -> Q a) -> Q b -> Q c ->
  Q (match r with
     | RVal (VHosts (_ :: _)) => a
     | RVal (VHosts []) | RErr ENotFound | RErr EMalformed | RVal _ => b
     | _ => c
     end).
Proof. intros Ha Hb Hc. destruct r as [[]| | | | | | | | | | |[|[]| | | | | | | | | | |]| | |]; first [exact (Ha _ _ eq_refl)|exact Hb|exact Hc]. Qed.

(* A syntactic walk over a program for [allcalls] / [nopanic] / [panics_in]: split binds, use the [prim]
   instances, take the program's case distinctions apart, open calls; [leaf] closes what remains at calls
   and leaves.  The clauses for [Ret] come first and [leaf] last: [exact I] against a large program makes
   Coq reduce the whole judgement before it fails. *)
Ltac walk leaf := repeat first
  [ match goal with
    | |- allcalls _ (Ret _) => exact I
    | |- allcalls _ (Panic _) => exact I
    | |- nopanic (Ret _) => exact I
    | |- panics_in _ (Ret _) => exact I
    | |- allcalls _ (bind _ _) => apply allcalls_bind; [|intros ?]
    | |- nopanic (bind _ _) => apply nopanic_bind; [|intros ?]
    | |- panics_in _ (bind _ _) => apply panics_in_bind; [|intros ?]
    | |- allcalls _ (Do _ _ _) => apply allcalls_do; [|intros ?]
    | |- nopanic (Do _ _ _) => apply nopanic_do; intros ?
    | |- panics_in _ (Do _ _ _) => apply panics_in_do; intros ?
    | |- allcalls _ (match ?x with _ => _ end) => case x; intros
    | |- nopanic (match ?x with _ => _ end) => case x; intros
    | |- panics_in _ (match ?x with _ => _ end) => case x; intros
    | |- allcalls _ _ => eapply prim_allcalls; [solve [auto with prim]|]
    | |- nopanic _ => eapply prim_nopanic; solve [auto with prim]
    | |- panics_in _ _ => apply nopanic_panics_in; eapply prim_nopanic; solve [auto with prim]
    end
  | leaf ].

(* Monitored safety: a deterministic monitor over the events of a run.
   Calls issued inside Par branches must be neutral for the monitor (they are
   checked against the state at the fork), which is the case for every use
   in Proofs/: the monitored events are issued by the sequential spine. *)
Section Monitor.
Variable S : Type.
Variable step : S -> call -> resp -> S.
Variable okc : S -> call -> Prop.

Definition neutral (c : call) : Prop := forall st r, step st c r = st.

Fixpoint safe {A} (st : S) (p : prog A) : Prop :=
  match p with
  | Ret _ => True
  | Panic _ => True
  | Do s c k => okc st c /\ forall r, safe (step st c r) (k r)
  | Par s bs k =>
      (fix go (bs : list (host * prog resp)) : Prop :=
         match bs with [] => True | (_, b) :: r => allcalls (fun _ c => okc st c /\ neutral c) b /\ go r end) bs
      /\ forall rs, safe st (k rs)
  end.

Fixpoint trace_ok (st : S) (tr : trace) : Prop :=
  match tr with
  | [] => True
  | e :: r => okc st (ev_call e) /\ trace_ok (step st (ev_call e) (ev_resp e)) r
  end.

(* the events of the branches of a parallel section: allowed in st, and they leave the monitor there *)
Definition calm_in (st : S) : event -> Prop := ev_ok (fun _ c => okc st c /\ neutral c).

Lemma trace_ok_neutral_app st t1 t2 : Forall (calm_in st) t1 -> trace_ok st t2 -> trace_ok st (t1 ++ t2).
Proof.
  induction t1 as [|e r IH]; intros H1 H2; cbn; [exact H2|].
  inversion H1 as [|? ? [Ho Hn] Hr]; subst. split; [exact Ho|]. rewrite Hn. apply IH; assumption.
Qed.

Lemma safe_sound {A} (p : prog A) : forall st, safe st p -> forall tr o, runs p tr o -> trace_ok st tr.
Proof.
  induction p as [a|s|s c k IH|s bs k IH] using prog_ind_k; cbn [safe]; intros st Hs tr o Hr.
  - destruct Hr as [-> _]. exact I.
  - destruct Hr as [-> _]. exact I.
  - destruct Hs as [Hc Hk]. destruct tr as [|e tr']; [destruct Hr|].
    destruct Hr as (_ & Hcall & Hrest). cbn. rewrite Hcall. split; [exact Hc|]. exact (IH _ _ (Hk _) _ _ Hrest).
  - destruct Hs as [Hbs Hk]. apply runs_par in Hr. destruct Hr as (ts & rs & ob & tpar & B & Hi & Hr).
    pose proof (par_footprint _ bs ts rs ob tpar Hbs B Hi : Forall (calm_in st) tpar) as Hpar.
    destruct ob as [s'|]; [destruct Hr as [-> _]; rewrite <- (app_nil_r tpar); apply trace_ok_neutral_app; [exact Hpar|exact I]|].
    destruct Hr as (tk & rs' & -> & _ & Hrk). apply trace_ok_neutral_app; [exact Hpar|exact (IH _ _ (Hk _) _ _ Hrk)].
Qed.

Lemma safe_bind {A B} (p : prog A) (f : A -> prog B) : forall st,
  safe st p -> (forall st' a, safe st' (f a)) -> safe st (bind p f).
Proof.
  induction p as [a|s|s c k IH|s bs k IH] using prog_ind_k; intros st Hp Hf; cbn in *; auto.
  - destruct Hp as [Hc Hk]. split; auto.
  - destruct Hp as [Hb Hk]. split; auto.
Qed.
End Monitor.

Lemma safe_bind_neutral {S} (step : S -> call -> resp -> S) (okc : S -> call -> Prop) {A B} (p : prog A) (f : A -> prog B) (st : S) :
  allcalls (fun _ c => okc st c /\ neutral S step c) p -> (forall a, safe S step okc st (f a)) -> safe S step okc st (bind p f).
Proof.
  induction p as [a|s|s c k IH|s bs k IH] using prog_ind_k; intros Hp Hf; cbn in *; auto.
  - destruct Hp as [[Hc Hn] Hk]. split; [exact Hc|]. intros r. rewrite Hn. apply IH; [apply Hk|exact Hf].
  - destruct Hp as [Hb Hk]. split; [exact Hb|]. intros rs. apply IH; [apply Hk|exact Hf].
Qed.

Lemma safe_at {S} (step : S -> call -> resp -> S) (okc : S -> call -> Prop) {A} (p : prog A) (st : S) :
  allcalls (fun _ c => okc st c /\ neutral S step c) p -> safe S step okc st p.
Proof.
  induction p as [a|s|s c k IH|s bs k IH] using prog_ind_k; intros Hp; cbn in *; auto.
  - destruct Hp as [[Hc Hn] Hk]. split; [exact Hc|]. intros r. rewrite Hn. apply IH. apply Hk.
  - destruct Hp as [Hb Hk]. split; [exact Hb|]. intros rs. apply IH. apply Hk.
Qed.

Lemma prim_safe_bind {S} (step : S -> call -> resp -> S) (okc : S -> call -> Prop) {A B} s c (p : prog A) (f : A -> prog B) st :
  prim s c p -> okc st c -> (forall r a, safe S step okc (step st c r) (f a)) -> safe S step okc st (bind p f).
Proof. intros (k & -> & Hk) Hc Hf. split; [exact Hc|]. intros r. cbn [bind]. destruct (Hk r) as [a ->]. apply Hf. Qed.
Lemma prim_safe {S} (step : S -> call -> resp -> S) (okc : S -> call -> Prop) {A} s c (p : prog A) st :
  prim s c p -> okc st c -> safe S step okc st p.
Proof. intros (k & -> & Hk) Hc. split; [exact Hc|]. intros r. destruct (Hk r) as [a ->]. exact I. Qed.

(* ---- statements about every run, proved along the program ------------------------------------------
   [holds p Psi]: every run of p satisfies Psi.  The rules keep the program in the goal and push the trace read
   so far into Psi; taking [runs] hypotheses apart with [runs_bind_inv] instead copies the rest of the procedure
   at every case split. *)
Definition holds {A} (p : prog A) (Psi : trace -> outcome A -> Prop) : Prop := forall tr o, runs p tr o -> Psi tr o.

Lemma holds_ret {A} (a : A) (Psi : trace -> outcome A -> Prop) : Psi [] (Done a) -> holds (Ret a) Psi.
Proof. intros H tr o [-> ->]. exact H. Qed.
Lemma holds_panic {A} s (Psi : trace -> outcome A -> Prop) : Psi [] (Panicked s) -> holds (Panic s) Psi.
Proof. intros H tr o [-> ->]. exact H. Qed.
Lemma holds_do {A} s c (k : resp -> prog A) (Psi : trace -> outcome A -> Prop) :
  (forall e, ev_site e = s -> ev_call e = c -> holds (k (ev_resp e)) (fun t o => Psi (e :: t) o)) -> holds (Do s c k) Psi.
Proof. intros H [|e t] o R; [destruct R|]. destruct R as (Es & Ec & R). exact (H e Es Ec t o R). Qed.
Lemma holds_bind {A B} (p : prog A) (f : A -> prog B) (Psi : trace -> outcome B -> Prop) :
  (forall t s, runs p t (Panicked s) -> Psi t (Panicked s)) ->
  (forall a t1, runs p t1 (Done a) -> holds (f a) (fun t o => Psi (t1 ++ t) o)) -> holds (bind p f) Psi.
Proof.
  intros Hp Hf tr o R. destruct (runs_bind_inv _ _ _ _ R) as [(t1 & t2 & a & R1 & R2 & ->)|(s & R1 & ->)]; [exact (Hf a t1 R1 t2 o R2)|exact (Hp tr s R1)].
Qed.
Lemma holds_conseq {A} (p : prog A) (Psi Psi' : trace -> outcome A -> Prop) :
  (forall t o, Psi t o -> Psi' t o) -> holds p Psi -> holds p Psi'.
Proof. intros I H tr o R. exact (I _ _ (H _ _ R)). Qed.
Lemma holds_prim {A} s c (p : prog A) (Psi : trace -> outcome A -> Prop) : prim s c p ->
  (forall e a, ev_call e = c -> runs p [e] (Done a) -> Psi [e] (Done a)) -> holds p Psi.
Proof.
  intros (k & -> & Hk) H [|e tr] o R; [destruct R|]. pose proof R as R0. destruct R as (Es & Ec & R).
  destruct (Hk (ev_resp e)) as [a Ea]. rewrite Ea in R. destruct R as [-> ->]. exact (H e a Ec R0).
Qed.
Lemma holds_prim_bind {A B} s c (p : prog A) (f : A -> prog B) (Psi : trace -> outcome B -> Prop) : prim s c p ->
  (forall e a, ev_call e = c -> runs p [e] (Done a) -> holds (f a) (fun t o => Psi (e :: t) o)) -> holds (bind p f) Psi.
Proof.
  intros Hp H tr o R. destruct (prim_runs_bind _ _ _ _ _ _ Hp R) as (e & tr' & a & -> & Ec & R1 & R2). exact (H e a Ec R1 tr' o R2).
Qed.

(* what holds of the runs that return *)
Definition returns {A} (p : prog A) (Psi : trace -> A -> Prop) : Prop :=
  holds p (fun tr o => match o with Done a => Psi tr a | Panicked _ => True end).
Lemma returns_ret {A} (a : A) (Psi : trace -> A -> Prop) : Psi [] a -> returns (Ret a) Psi.
Proof. intros H. apply holds_ret. exact H. Qed.
Lemma returns_do {A} s c (k : resp -> prog A) (Psi : trace -> A -> Prop) :
  (forall e, ev_call e = c -> returns (k (ev_resp e)) (fun t a => Psi (e :: t) a)) -> returns (Do s c k) Psi.
Proof. intros H. apply holds_do. intros e _ Ec. exact (H e Ec). Qed.
Lemma returns_bind {A B} (p : prog A) (f : A -> prog B) (Psi : trace -> B -> Prop) :
  (forall a t1, runs p t1 (Done a) -> returns (f a) (fun t b => Psi (t1 ++ t) b)) -> returns (bind p f) Psi.
Proof. intros H. apply holds_bind; [intros; exact I|exact H]. Qed.
Lemma returns_runs {A} (p : prog A) Psi tr a : returns p Psi -> runs p tr (Done a) -> Psi tr a.
Proof. intros H R. exact (H tr (Done a) R). Qed.
Lemma returns_conseq {A} (p : prog A) (Psi Psi' : trace -> A -> Prop) : (forall t a, Psi t a -> Psi' t a) -> returns p Psi -> returns p Psi'.
Proof. intros I. apply holds_conseq. intros t [a|s]; [apply I|exact (fun x => x)]. Qed.
Lemma returns_any {A} (p : prog A) (Psi : trace -> A -> Prop) : (forall t a, Psi t a) -> returns p Psi.
Proof. intros H t [a|s] _; [apply H|exact I]. Qed.

(* where an event that violates a footprint P can sit: not in a part all of whose calls satisfy P *)
Section Located.
Variable P : site -> call -> Prop.
Variable e : event.
Hypothesis Hbad : ~ ev_ok P e.

Definition located {A} (p : prog A) (Phi : trace -> Prop) : Prop := holds p (fun tr _ => In e tr -> Phi tr).
Definition quiet {A} (p : prog A) : Prop := holds p (fun tr _ => Forall (ev_ok P) tr).

Lemma quiet_allcalls {A} (p : prog A) : allcalls P p -> quiet p.
Proof. intros H tr o R. exact (allcalls_sound P p H tr o R). Qed.
Lemma quiet_bind {A B} (p : prog A) (f : A -> prog B) : quiet p -> (forall a, quiet (f a)) -> quiet (bind p f).
Proof.
  intros Hp Hf. apply holds_bind; [intros t s R; exact (Hp t _ R)|].
  intros a t1 R1 t o R2. apply Forall_app. split; [exact (Hp _ _ R1)|exact (Hf a _ _ R2)].
Qed.
Lemma located_runs {A} (p : prog A) (Phi : trace -> Prop) : located p Phi -> forall tr o, runs p tr o -> In e tr -> Phi tr.
Proof. intros L. exact L. Qed.
Lemma quiet_not_in tr : Forall (ev_ok P) tr -> ~ In e tr.
Proof. intros F Hin. rewrite Forall_forall in F. exact (Hbad (F e Hin)). Qed.
Lemma located_quiet {A} (p : prog A) Phi : quiet p -> located p Phi.
Proof. intros Q tr o R Hin. destruct (quiet_not_in tr (Q tr o R) Hin). Qed.
Lemma located_ret {A} (a : A) Phi : located (Ret a) Phi.
Proof. apply holds_ret. intros []. Qed.
Lemma located_panic {A} s Phi : located (@Panic A s) Phi.
Proof. apply holds_panic. intros []. Qed.
Lemma located_do {A} s c (k : resp -> prog A) (Phi : trace -> Prop) : P s c ->
  (forall e0, ev_call e0 = c -> located (k (ev_resp e0)) (fun t => Phi (e0 :: t))) -> located (Do s c k) Phi.
Proof.
  intros Hc H. apply holds_do. intros e0 Es Ec t o R [<-|Hin]; [|exact (H e0 Ec t o R Hin)].
  destruct Hbad. unfold ev_ok. rewrite Es, Ec. exact Hc.
Qed.
Lemma located_bind {A B} (p : prog A) (f : A -> prog B) (Phi : trace -> Prop) : quiet p ->
  (forall a t1, runs p t1 (Done a) -> located (f a) (fun t => Phi (t1 ++ t))) -> located (bind p f) Phi.
Proof.
  intros Q H. apply holds_bind.
  - intros t s R Hin. destruct (quiet_not_in t (Q t _ R) Hin).
  - intros a t1 R1 t o R2 Hin. apply in_app_or in Hin. destruct Hin as [Hin|Hin]; [destruct (quiet_not_in t1 (Q t1 _ R1) Hin)|exact (H a t1 R1 t o R2 Hin)].
Qed.
Lemma located_prim_bind {A B} s c (p : prog A) (f : A -> prog B) Phi : prim s c p -> P s c ->
  (forall e0 a, ev_call e0 = c -> runs p [e0] (Done a) -> located (f a) (fun t => Phi (e0 :: t))) -> located (bind p f) Phi.
Proof.
  intros Hp Hc H. apply located_bind; [apply quiet_allcalls, (prim_allcalls P _ _ _ Hp Hc)|]. intros a t1 R1.
  exact (holds_prim _ _ _ (fun t1 o => match o with Done a => located (f a) (fun t => Phi (t1 ++ t)) | Panicked _ => True end)
           Hp (fun e0 a Ec R => H e0 a Ec R) t1 (Done a) R1).
Qed.
Lemma located_bind_notin {A B} (p : prog A) (f : A -> prog B) (Phi : trace -> Prop) : quiet p ->
  (forall a t1, runs p t1 (Done a) -> ~ In e t1 -> located (f a) (fun t => Phi (t1 ++ t))) -> located (bind p f) Phi.
Proof. intros Q H. apply located_bind; [exact Q|]. intros a t1 R1. exact (H a t1 R1 (quiet_not_in t1 (Q t1 _ R1))). Qed.
Lemma located_bind_l {A B} (p : prog A) (f : A -> prog B) (Phi : trace -> Prop) : (forall a, quiet (f a)) ->
  located p (fun t1 => forall t2, Phi (t1 ++ t2)) -> located (bind p f) Phi.
Proof.
  intros Q H. apply holds_bind.
  - intros t s R Hin. rewrite <- (app_nil_r t). exact (H t _ R Hin []).
  - intros a t1 R1 t o R2 Hin. apply in_app_or in Hin. destruct Hin as [Hin|Hin]; [exact (H t1 _ R1 Hin t)|].
    destruct (quiet_not_in t (Q a t o R2) Hin).
Qed.
Lemma located_par {A} s bs (k : list (host * resp) -> prog A) (Phi : trace -> Prop) : all_branches (allcalls P) bs ->
  (forall rs tpar, located (k rs) (fun t => Phi (tpar ++ t))) -> located (Par s bs k) Phi.
Proof.
  intros Hb Hk tr o R Hin. destruct (runs_par_split P _ _ _ _ _ Hb R) as [(rs & tk & tpar & -> & F & Rk)|(F & _)].
  - apply in_app_or in Hin. destruct Hin as [Hin|Hin]; [destruct (quiet_not_in _ F Hin)|exact (Hk rs tpar tk o Rk Hin)].
  - destruct (quiet_not_in _ F Hin).
Qed.
End Located.

Lemma before_first {X} (x : X) pre : ~ In x pre -> forall rest a b, pre ++ rest = a ++ x :: b -> incl pre a.
Proof.
  induction pre as [|y pre IH]; intros N rest a b E; [apply incl_nil_l|]. destruct a as [|z a]; injection E as E1 E2.
  - destruct N. left. exact E1.
  - subst z. apply incl_cons; [left; reflexivity|]. apply incl_tl. exact (IH (fun K => N (or_intror K)) _ _ _ E2).
Qed.
