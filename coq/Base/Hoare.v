(* A weakest-precondition calculus over a deterministic monitor of the calls of a
   run: [wp st p Q] says that from monitor state st every call p issues is allowed
   (okc) and, if p returns a, Q holds of the monitor state reached and a.
   [safe] of ProgFacts is the special case Q = True.  Calls inside Par branches
   must not move the monitor (neutral). *)
From Coq Require Import ZArith NArith Bool List Lia Permutation.
From Mysync Require Import Base.Prog Base.ProgFacts.
Import ListNotations.

Section WP.
Variable S : Type.
Variable step : S -> call -> resp -> S.
Variable okc : S -> call -> Prop.

Definition fold_steps (st : S) (tr : trace) : S := fold_left (fun st e => step st (ev_call e) (ev_resp e)) tr st.

Fixpoint wp {A} (st : S) (p : prog A) (Q : S -> A -> Prop) : Prop :=
  match p with
  | Ret a => Q st a
  | Panic _ => True
  | Do s c k => okc st c /\ forall r, wp (step st c r) (k r) Q
  | Par s bs k =>
      (fix go (bs : list (host * prog resp)) : Prop :=
         match bs with [] => True | (_, b) :: r => allcalls (fun _ c => okc st c /\ neutral S step c) b /\ go r end) bs
      /\ forall rs, wp st (k rs) Q
  end.

Lemma fold_steps_app st t1 t2 : fold_steps st (t1 ++ t2) = fold_steps (fold_steps st t1) t2.
Proof. unfold fold_steps. apply fold_left_app. Qed.

Lemma fold_steps_neutral st t : Forall (fun e => okc st (ev_call e) /\ neutral S step (ev_call e)) t -> fold_steps st t = st.
Proof.
  induction t as [|e r IH]; intros H; [reflexivity|]. inversion H as [|? ? [_ Hn] Hr]; subst.
  cbn. rewrite Hn. apply IH. exact Hr.
Qed.

Lemma wp_safe {A} (p : prog A) : forall st Q, wp st p Q -> safe S step okc st p.
Proof.
  induction p as [a|s|s c k IH|s bs k IH] using prog_ind_k; intros st Q Hp; cbn in *; auto.
  - destruct Hp as [Hc Hk]. split; eauto.
  - destruct Hp as [Hb Hk]. split; eauto.
Qed.
(* the calls are allowed because [wp] contains [safe]; what remains is the state a returning run ends in *)
Lemma wp_sound {A} (p : prog A) :
  forall st Q, wp st p Q -> forall tr o, runs p tr o ->
    trace_ok S step okc st tr /\ match o with Done a => Q (fold_steps st tr) a | Panicked _ => True end.
Proof.
  intros st Q Hs tr o Hr. split; [exact (safe_sound S step okc p st (wp_safe p st Q Hs) tr o Hr)|].
  destruct o as [a|s']; [|exact I]. revert st Q Hs tr Hr.
  induction p as [a0|s|s c k IH|s bs k IH] using prog_ind_k; cbn [wp]; intros st Q Hs tr Hr.
  - destruct Hr as [-> E]. injection E as <-. exact Hs.
  - destruct Hr as [_ E]. discriminate E.
  - destruct Hs as [_ Hk]. destruct tr as [|e tr']; [destruct Hr|]. destruct Hr as (_ & Hcall & Hrest).
    unfold fold_steps. cbn [fold_left]. rewrite Hcall. exact (IH _ _ _ (Hk (ev_resp e)) _ Hrest).
  - destruct Hs as [Hbs Hk]. apply runs_par in Hr. destruct Hr as (ts & rs & [s1|] & tpar & B & Hi & Hr); [destruct Hr as [_ E]; discriminate E|].
    destruct Hr as (tk & rs' & -> & _ & Hrk). rewrite fold_steps_app, (fold_steps_neutral _ _ (par_footprint _ bs ts rs None tpar Hbs B Hi)).
    exact (IH _ _ _ (Hk rs') _ Hrk).
Qed.

Lemma wp_conseq {A} (p : prog A) : forall st (Q Q' : S -> A -> Prop),
  (forall st' a, Q st' a -> Q' st' a) -> wp st p Q -> wp st p Q'.
Proof.
  induction p as [a|s|s c k IH|s bs k IH] using prog_ind_k; intros st Q Q' HQ Hp; cbn in *; auto.
  - destruct Hp as [Hc Hk]. split; eauto.
  - destruct Hp as [Hb Hk]. split; eauto.
Qed.

Lemma wp_bind {A B} (p : prog A) (f : A -> prog B) : forall st (Q : S -> B -> Prop),
  wp st p (fun st' a => wp st' (f a) Q) -> wp st (bind p f) Q.
Proof.
  induction p as [a|s|s c k IH|s bs k IH] using prog_ind_k; intros st Q Hp; cbn in *; auto.
  - destruct Hp as [Hc Hk]. split; auto.
  - destruct Hp as [Hb Hk]. split; auto.
Qed.

Lemma wp_neutral {A} (p : prog A) : forall st (Q : S -> A -> Prop),
  allcalls (fun _ c => okc st c /\ neutral S step c) p -> (forall a, Q st a) -> wp st p Q.
Proof.
  induction p as [a|s|s c k IH|s bs k IH] using prog_ind_k; intros st Q Hp HQ; cbn in *; auto.
  - destruct Hp as [[Hc Hn] Hk]. split; [exact Hc|]. intros r. rewrite Hn. apply IH; auto.
  - destruct Hp as [Hb Hk]. split; [exact Hb|]. intros rs. apply IH; auto.
Qed.

Lemma wp_bind_neutral {A B} (p : prog A) (f : A -> prog B) st (Q : S -> B -> Prop) :
  allcalls (fun _ c => okc st c /\ neutral S step c) p -> (forall a, wp st (f a) Q) -> wp st (bind p f) Q.
Proof. intros Hp Hf. apply wp_bind. apply wp_neutral; assumption. Qed.

End WP.

(* a property the final monitor state has was there at the start or came with one of the events *)
Lemma fold_steps_origin {S} step (P : S -> Prop) (E : call -> resp -> Prop) :
  (forall st c r, P (step st c r) -> P st \/ E c r) ->
  forall tr st, P (fold_steps S step st tr) -> P st \/ exists e, In e tr /\ E (ev_call e) (ev_resp e).
Proof.
  intros H. induction tr as [|x r IH]; intros st K; [left; exact K|].
  destruct (IH _ K) as [K'|(e & Hi & He)]; [|right; exists e; split; [right; exact Hi|exact He]].
  destruct (H _ _ _ K') as [K''|He]; [left; exact K''|right; exists x; split; [left; reflexivity|exact He]].
Qed.

(* a judgement about one monitor read through an abstraction f of its state: what is allowed in s
   is allowed in f s, and f commutes with the steps *)
Section Map.
Variables (S1 S2 : Type) (step1 : S1 -> call -> resp -> S1) (ok1 : S1 -> call -> Prop)
          (step2 : S2 -> call -> resp -> S2) (ok2 : S2 -> call -> Prop) (f : S1 -> S2) (g : S2 -> S1).
Hypothesis fg : forall s, f (g s) = s.
Hypothesis Hok : forall s c, ok1 s c -> ok2 (f s) c.
Hypothesis Hstep : forall s c r, f (step1 s c r) = step2 (f s) c r.

Lemma neutral_map c : neutral S1 step1 c -> neutral S2 step2 c.
Proof. intros H s r. rewrite <- (fg s), <- Hstep, H. reflexivity. Qed.

Lemma wp_map {A} (p : prog A) : forall st (Q : S2 -> A -> Prop),
  wp S1 step1 ok1 st p (fun s a => Q (f s) a) -> wp S2 step2 ok2 (f st) p Q.
Proof.
  induction p as [a|s|s c k IH|s bs k IH] using prog_ind_k; intros st Q H; cbn [wp] in *; auto.
  - destruct H as [Hc Hk]. split; [apply Hok; exact Hc|]. intros r. rewrite <- Hstep. apply IH. apply Hk.
  - destruct H as [Hb Hk]. split; [|intros rs; apply IH; apply Hk]. revert Hb. apply all_branches_impl. intros b.
    apply allcalls_impl. intros _ c [K1 K2]. split; [apply Hok; exact K1|apply neutral_map; exact K2].
Qed.
End Map.

Section Prefix.
Variable S : Type.
Variable step : S -> call -> resp -> S.
Variable okc : S -> call -> Prop.
Lemma trace_ok_app st t1 t2 : trace_ok S step okc st (t1 ++ t2) <-> trace_ok S step okc st t1 /\ trace_ok S step okc (fold_steps S step st t1) t2.
Proof.
  revert st. induction t1 as [|e r IH]; intros st; cbn [app trace_ok]; [unfold fold_steps; cbn; tauto|].
  rewrite IH. unfold fold_steps. cbn [fold_left]. tauto.
Qed.
(* what the monitor allows is all a checked trace contains; a state that allows nothing ends it *)
Lemma trace_ok_Forall (P : call -> Prop) : (forall st c, okc st c -> P c) ->
  forall tr st, trace_ok S step okc st tr -> Forall (fun e => P (ev_call e)) tr.
Proof. intros H. induction tr as [|e r IH]; intros st; [constructor|]. intros [H1 H2]. constructor; [exact (H _ _ H1)|exact (IH _ H2)]. Qed.
Lemma trace_ok_dead st tr : (forall c, ~ okc st c) -> trace_ok S step okc st tr -> tr = [].
Proof. intros H. destruct tr as [|e r]; [reflexivity|]. intros [H1 _]. destruct (H _ H1). Qed.
Lemma trace_ok_last st t1 e t2 : trace_ok S step okc st (t1 ++ e :: t2) ->
  (forall st', okc st' (ev_call e) -> forall c, ~ okc (step st' (ev_call e) (ev_resp e)) c) -> t2 = [].
Proof. intros T H. apply trace_ok_app in T. destruct T as [_ [E T]]. exact (trace_ok_dead _ _ (H _ E) T). Qed.
(* a process can die between any two calls: what a monitored-safety theorem says of a run it says of
   every prefix of the run *)
Lemma trace_ok_firstn k : forall st tr, trace_ok S step okc st tr -> trace_ok S step okc st (firstn k tr).
Proof.
  induction k as [|k IH]; intros st tr H; [exact I|]. destruct tr as [|e r]; [exact I|].
  cbn [firstn trace_ok] in *. destruct H as [H1 H2]. split; [exact H1|apply IH; exact H2].
Qed.
Theorem safe_on_every_crash_prefix {A} (p : prog A) st tr o k :
  safe S step okc st p -> runs p tr o -> trace_ok S step okc st (firstn k tr).
Proof. intros Hs Hr. apply trace_ok_firstn. exact (safe_sound S step okc p st Hs tr o Hr). Qed.
End Prefix.

Lemma Forall_firstn {X} (P : X -> Prop) k : forall l, Forall P l -> Forall P (firstn k l).
Proof. induction k as [|k IH]; intros l H; [constructor|]. destruct l; [constructor|]. inversion H; subst. cbn. constructor; auto. Qed.
