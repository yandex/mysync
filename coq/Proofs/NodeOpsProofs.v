From Coq Require Import ZArith NArith Bool List Lia.
From Mysync Require Import Base.Prog Base.ProgFacts Base.Hoare Procs.NodeOps.
Import ListNotations.
Open Scope Z_scope.

Lemma prim_exec s h st : prim s (Sql h st) (exec_ s h st). Proof. prim_tac. Qed.
Lemma prim_ping s h : prim s (Sql h SPing) (ping s h). Proof. prim_tac. Qed.
Lemma prim_is_read_only s h : prim s (Sql h SIsReadOnly) (is_read_only s h). Proof. prim_tac. Qed.
Lemma prim_is_offline s h : prim s (Sql h SIsOffline) (is_offline s h). Proof. prim_tac. Qed.
Lemma prim_replica_status s h : prim s (Sql h SShowReplica) (replica_status s h). Proof. prim_tac. Qed.
Lemma prim_gtid_executed s h : prim s (Sql h SGtidExecuted) (gtid_executed s h). Proof. prim_tac. Qed.
(* SemiSyncStatus tells errno 1193 apart; [prim_tac] would take the number apart bit by bit inside the whole decoder *)
Lemma errno_1193_cases {X} (n : Z) (x y : X) (Q : X -> Prop) : Q x -> Q y -> Q (match n with 1193 => x | _ => y end).
Proof. intros Hx Hy. destruct n as [|p|p]; try exact Hy. do 11 (destruct p as [p|p|]; try exact Hy). exact Hx. Qed.
Lemma prim_semi_sync_status s h : prim s (Sql h SSemiStatus) (semi_sync_status s h).
Proof.
  eexists; split; [reflexivity|]. intros r. cbv beta. case r; [|intros; exact (ex_intro _ _ eq_refl)..].
  intros e. case e; [| | |intros n; apply (errno_1193_cases n _ _ (fun x => exists a, x = Ret a))|..]; intros; exact (ex_intro _ _ eq_refl).
Qed.
Lemma prim_repl_settings s h : prim s (Sql h SReplSettings) (repl_settings s h). Proof. prim_tac. Qed.
Lemma prim_is_waiting_ack s h : prim s (Sql h SWaitingAck) (is_waiting_ack s h). Proof. prim_tac. Qed.
#[export] Hint Resolve prim_exec prim_ping prim_is_read_only prim_is_offline prim_replica_status prim_gtid_executed
  prim_semi_sync_status prim_repl_settings prim_is_waiting_ack : prim.

Lemma replica_status_done s h e st : runs (replica_status s h) [e] (Done st) -> snd st = None -> ev_resp e = RRepl (fst st).
Proof. intros (_ & _ & R). revert R. destruct (ev_resp e); intros R; apply run_ret in R; destruct R as [_ <-]; (reflexivity || discriminate). Qed.
Lemma gtid_executed_done s h e g : runs (gtid_executed s h) [e] (Done g) -> snd g = None -> ev_resp e = RGtid (fst g).
Proof. intros (_ & _ & R). revert R. destruct (ev_resp e); intros R; apply run_ret in R; destruct R as [_ <-]; (reflexivity || discriminate). Qed.
Lemma is_waiting_ack_done s h e w : runs (is_waiting_ack s h) [e] (Done w) -> snd w = None -> ev_resp e = RBool (fst w).
Proof. intros (_ & _ & R). revert R. destruct (ev_resp e); intros R; apply run_ret in R; destruct R as [_ <-]; (reflexivity || discriminate). Qed.
Lemma is_read_only_done s h e a b : runs (is_read_only s h) [e] (Done (a, b, None)) -> ev_resp e = RFlags a b.
Proof. intros (_ & _ & R). revert R. destruct (ev_resp e); intros R; apply run_ret in R; destruct R as [_ K]; (discriminate K || (injection K as -> ->; reflexivity)). Qed.

Lemma runs_exec s h st t o : runs (exec_ s h st) t o ->
  exists e oe, t = [e] /\ o = Done oe /\ ev_site e = s /\ ev_call e = Sql h st /\ (oe = None -> ev_resp e = ROk).
Proof.
  unfold exec_. cbn [runs]. destruct t as [|e t']; [intros []|]. intros (Es & Ec & R).
  (* decoded under [clear]: fifteen cases, each in a small context *)
  match type of R with runs ?p _ _ => assert (K : exists oe, p = Ret oe /\ (oe = None -> ev_resp e = ROk)) end.
  { clear. destruct (ev_resp e); eexists; (split; [reflexivity|]); first [reflexivity|discriminate]. }
  destruct K as (oe & K1 & K2). rewrite K1 in R. destruct R as [-> ->]. exists e, oe. auto.
Qed.

Lemma wp_exec {S} (step : S -> call -> resp -> S) (okc : S -> call -> Prop) s h stm st (Q : S -> oerr -> Prop) :
  okc st (Sql h stm) -> Q (step st (Sql h stm) ROk) None -> (forall r x, Q (step st (Sql h stm) r) (Some x)) ->
  wp S step okc st (exec_ s h stm) Q.
Proof. intros Hc H1 H2. split; [exact Hc|]. intros r. destruct r; first [exact H1|apply H2]. Qed.

Section AC.
Variable P : site -> call -> Prop.

Lemma ac_exec s h st : P s (Sql h st) -> allcalls P (exec_ s h st). Proof. apply prim_allcalls. auto with prim. Qed.

Lemma ac_set_read_only_once h super :
  P 10767 (Sql h (SSetRO super)) -> P 10773 (Sql h SIsReadOnly) -> allcalls P (set_read_only_once h super).
Proof. intros H1 H2. unfold set_read_only_once. walk ltac:(first [exact I|assumption]). Qed.

Lemma ac_kill_loop fuel h :
  (forall c, P 10810 (Peek c)) -> P 10811 (Sql h SProcessIds) -> (forall id, P 10814 (Sql h (SKill id))) ->
  allcalls P (kill_loop fuel h).
Proof.
  intros H0 H1 H2. induction fuel as [|f IH]; cbn [kill_loop]; [exact I|].
  walk ltac:(first [exact I|exact IH|apply H0|exact H1]).
  apply allcalls_forM_. intros id _. walk ltac:(first [exact I|apply H2]).
Qed.

Lemma ac_set_read_only_with_force fuel h super :
  P 10767 (Sql h (SSetRO super)) -> P 10773 (Sql h SIsReadOnly) ->
  (forall c, P 10810 (Peek c)) -> P 10811 (Sql h SProcessIds) -> (forall id, P 10814 (Sql h (SKill id))) ->
  allcalls P (set_read_only_with_force fuel h super).
Proof.
  intros H1 H2 H3 H4 H5. pose proof (ac_set_read_only_once h super H1 H2) as Once. unfold set_read_only_with_force.
  walk ltac:(first [exact I|exact Once]). cbn [allcalls]. split.
  - split; [walk ltac:(first [exact I|exact Once])|]. split; [apply ac_kill_loop; assumption|exact I].
  - intros rs. walk ltac:(exact I).
Qed.

Lemma ac_gns_fail h ns : P 2191 (Sql h SPing) -> allcalls P (gns_fail h ns).
Proof. intros H. unfold gns_fail. walk ltac:(first [exact I|exact H]). Qed.

Definition gns_calls_ok (h : host) : Prop :=
  P 2131 Now /\ P 2133 (Sql h SPing) /\ P 2191 (Sql h SPing) /\ P 2142 (Sql h SIsReadOnly) /\ P 2146 (Sql h SIsOffline) /\
  P 2150 (Sql h SShowReplica) /\ P 2154 (Sql h SReplSettings) /\ P 2173 (Sql h SGtidExecuted) /\ P 2180 (Sql h SSemiStatus).

Lemma ac_get_node_state h casc : gns_calls_ok h -> allcalls P (get_node_state h casc).
Proof.
  intros (H0 & H1 & H2 & H3 & H4 & H5 & H6 & H7 & H8). unfold get_node_state.
  walk ltac:(first [exact I|assumption|apply ac_gns_fail; exact H2]).
Qed.
End AC.
