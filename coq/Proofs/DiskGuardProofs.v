From Coq Require Import ZArith NArith Bool List Lia.
From Mysync Require Import Base.Prog Base.ProgFacts Base.Config Procs.DiskGuard Proofs.NodeOpsProofs.
Import ListNotations.
Open Scope Z_scope.

Definition guard_call_ok (master : host) (a : guard_action) (c : call) : Prop :=
  match c with
  | Sql h st =>
      h = master /\
      match st with
      | SSetRO s => a = GaSetRO s
      | SIsReadOnly | SProcessIds | SKill _ => exists s, a = GaSetRO s
      | SSetWritable => a = GaSetWritable
      | _ => False
      end
  | DcsSet PLowSpace (VBool b) => if b then exists s, a = GaSetRO s else a = GaSetWritable
  | Peek _ => True
  | _ => False
  end.

Theorem guard_allcalls cfg master ms states :
  allcalls (fun _ c => guard_call_ok master (guard_decide cfg master ms states) c) (repair_read_only_on_master cfg master ms states).
Proof.
  unfold repair_read_only_on_master. destruct (guard_decide cfg master ms states) as [s| |]; [| |exact I].
  - apply allcalls_bind.
    + apply ac_set_read_only_with_force; cbn; eauto.
    + intros [e|]; [exact I|]. split; [cbn; eauto|intros; exact I].
  - apply allcalls_bind; [apply ac_exec; cbn; auto|]. intros [e|]; [exact I|]. split; [cbn; auto|intros; exact I].
Qed.

Theorem guard_trace_ok cfg master ms states tr o :
  runs (repair_read_only_on_master cfg master ms states) tr o ->
  Forall (fun e => guard_call_ok master (guard_decide cfg master ms states) (ev_call e)) tr.
Proof. intros H. exact (allcalls_sound _ _ (guard_allcalls cfg master ms states) tr o H). Qed.

Theorem guard_none_no_calls cfg master ms states :
  guard_decide cfg master ms states = GaNone -> repair_read_only_on_master cfg master ms states = Ret tt.
Proof. intros H. unfold repair_read_only_on_master. rewrite H. reflexivity. Qed.

Theorem guard_ro_first_call cfg master ms states s tr o :
  guard_decide cfg master ms states = GaSetRO s ->
  runs (repair_read_only_on_master cfg master ms states) tr o ->
  exists e tr', tr = e :: tr' /\ ev_call e = Sql master (SSetRO s).
Proof. intros H Hr. eapply runs_head; [|exact Hr]. unfold repair_read_only_on_master. rewrite H. reflexivity. Qed.

Theorem guard_rw_first_call cfg master ms states tr o :
  guard_decide cfg master ms states = GaSetWritable ->
  runs (repair_read_only_on_master cfg master ms states) tr o ->
  exists e tr', tr = e :: tr' /\ ev_call e = Sql master SSetWritable.
Proof. intros H Hr. eapply runs_head; [|exact Hr]. unfold repair_read_only_on_master. rewrite H. reflexivity. Qed.

(* the low-space flag is written only as the LAST call, right after the statement succeeded *)
Theorem guard_flag_after_success cfg master ms states tr o :
  runs (repair_read_only_on_master cfg master ms states) tr o ->
  guard_decide cfg master ms states = GaSetWritable ->
  forall e, In e tr -> (exists v, ev_call e = DcsSet PLowSpace v) ->
  tr = [{| ev_site := 1756; ev_call := Sql master SSetWritable; ev_resp := ROk |}; e] /\ ev_call e = DcsSet PLowSpace (VBool false).
Proof.
  intros Hr Hd e Hin [v Hv]. unfold repair_read_only_on_master in Hr. rewrite Hd in Hr.
  destruct (runs_bind_inv _ _ _ _ Hr) as [(t1 & t2 & oe & R1 & R2 & ->)|(s & R1 & _)].
  2: { destruct (runs_exec _ _ _ _ _ R1) as (e1 & oe' & _ & K & _). discriminate K. }
  destruct (runs_exec _ _ _ _ _ R1) as (e1 & oe' & -> & K & Es & Ec & Hok). injection K as K. subst oe'.
  destruct oe as [x|].
  - destruct R2 as [-> _]. destruct Hin as [<-|[]]. rewrite Ec in Hv. discriminate Hv.
  - cbn [runs] in R2. destruct t2 as [|e2 t2]; [destruct R2|]. destruct R2 as (_ & Ec2 & [-> _]).
    destruct Hin as [<-|[<-|[]]]; [rewrite Ec in Hv; discriminate Hv|]. split; [|exact Ec2].
    destruct e1 as [s1 c1 r1]. cbn in Es, Ec, Hok. rewrite Es, Ec, (Hok eq_refl). reflexivity.
Qed.

Definition guard_counts_of cfg master states :=
  fold_left (guard_step cfg master) states {| g_need_ro := false; g_may_write := true; g_running := 0; g_low := 0; g_normal := 0 |}.

Definition guard_need_ro cfg master ms states : bool :=
  let c := guard_counts_of cfg master states in
  g_need_ro c || ((0 <? g_running c) && match ns_semi ms with Some (_, _, w) => g_running c - w <? g_low c | None => false end).

Definition guard_may_write cfg master (ms : node_state) states : bool :=
  let c := guard_counts_of cfg master states in
  g_may_write c && negb ((0 <? g_running c) && (g_normal c =? 0)).

(* the semi-sync clause can only raise need_ro or clear may_write *)
Lemma guard_decide_eq cfg master ms states : guard_decide cfg master ms states =
  if guard_need_ro cfg master ms states then
    (if ns_ro ms && negb (Bool.eqb (c_keep_super_writable cfg) (ns_super_ro ms)) then GaNone else GaSetRO (negb (c_keep_super_writable cfg)))
  else if guard_may_write cfg master ms states then (if negb (ns_ro ms) then GaNone else GaSetWritable) else GaNone.
Proof.
  unfold guard_decide, guard_need_ro, guard_may_write, guard_counts_of. set (c := fold_left _ _ _).
  destruct (0 <? g_running c); cbn [andb]; [|rewrite orb_false_r, andb_true_r; reflexivity].
  assert (E : forall b : bool, (if b then (g_need_ro c, false) else (g_need_ro c, g_may_write c)) = (g_need_ro c, g_may_write c && negb b)).
  { intros []; [rewrite andb_false_r|rewrite andb_true_r]; reflexivity. }
  destruct (ns_semi ms) as [[[m sl] w]|].
  - destruct (g_running c - w <? g_low c); [rewrite orb_true_r; reflexivity|]. rewrite E, orb_false_r. reflexivity.
  - rewrite E, orb_false_r. reflexivity.
Qed.

Theorem guard_decide_ro_iff cfg master ms states s :
  guard_decide cfg master ms states = GaSetRO s <->
  guard_need_ro cfg master ms states = true /\
  (ns_ro ms && negb (Bool.eqb (c_keep_super_writable cfg) (ns_super_ro ms))) = false /\
  s = negb (c_keep_super_writable cfg).
Proof.
  rewrite guard_decide_eq. destruct (guard_need_ro cfg master ms states).
  - destruct (ns_ro ms && negb _).
    + split; [discriminate|intros (_ & K & _); discriminate K].
    + split; [intros E; injection E as <-; auto|intros (_ & _ & ->); reflexivity].
  - split; [|intros (K & _); discriminate K].
    destruct (guard_may_write cfg master ms states); [destruct (negb (ns_ro ms))|]; discriminate.
Qed.

Theorem guard_decide_rw_iff cfg master ms states :
  guard_decide cfg master ms states = GaSetWritable <->
  guard_need_ro cfg master ms states = false /\ guard_may_write cfg master ms states = true /\ ns_ro ms = true.
Proof.
  rewrite guard_decide_eq. destruct (guard_need_ro cfg master ms states).
  - split; [destruct (ns_ro ms && negb _); discriminate|intros (K & _); discriminate K].
  - destruct (guard_may_write cfg master ms states); [|split; [discriminate|intros (_ & K & _); discriminate K]].
    destruct (ns_ro ms); cbn [negb]; [split; auto|split; [discriminate|intros (_ & _ & K); discriminate K]].
Qed.

Lemma guard_step_need_ro cfg master acc hn :
  g_need_ro (guard_step cfg master acc hn) =
  g_need_ro acc || match ns_disk (snd hn) with
                   | Some d => ns_is_master (snd hn) && N.eqb master (fst hn) && usage_ge d (c_critical_disk cfg)
                   | None => false
                   end.
Proof.
  destruct hn as [h ns]. cbn [fst snd guard_step]. destruct (ns_disk ns) as [d|]; [|rewrite orb_false_r; reflexivity].
  destruct (ns_is_master ns && N.eqb master h); cbn [andb].
  - destruct (usage_ge d (c_critical_disk cfg)); cbn; [rewrite orb_true_r; reflexivity|].
    rewrite orb_false_r. destruct (usage_gt d (c_not_critical_disk cfg)); reflexivity.
  - rewrite orb_false_r. destruct (is_running_semisync_replica cfg ns); [|reflexivity].
    destruct (usage_ge d (c_critical_disk cfg)); [reflexivity|]. destruct (usage_gt d (c_not_critical_disk cfg)); reflexivity.
Qed.

(* a flag that a fold can only raise is raised by some element *)
Lemma fold_left_orb {A B} (step : A -> B -> A) (f : A -> bool) (g : B -> bool) :
  (forall acc x, f (step acc x) = f acc || g x) -> forall l acc, f (fold_left step l acc) = f acc || existsb g l.
Proof.
  intros H l. induction l as [|x r IH]; intros acc; cbn [fold_left existsb]; [symmetry; apply orb_false_r|].
  rewrite IH, H. symmetry. apply orb_assoc.
Qed.

Theorem guard_master_critical_iff cfg master states :
  g_need_ro (guard_counts_of cfg master states) = true <->
  exists h ns d, In (h, ns) states /\ ns_disk ns = Some d /\ ns_is_master ns = true /\ h = master /\ usage_ge d (c_critical_disk cfg) = true.
Proof.
  unfold guard_counts_of. rewrite (fold_left_orb _ g_need_ro _ (guard_step_need_ro cfg master)). cbn [g_need_ro orb].
  rewrite existsb_exists. split.
  - intros ([h ns] & Hi & H). cbn [fst snd] in H. destruct (ns_disk ns) as [d|] eqn:Ed; [|discriminate].
    apply andb_true_iff in H. destruct H as [H H3]. apply andb_true_iff in H. destruct H as [H1 H2].
    apply N.eqb_eq in H2. exists h, ns, d. auto.
  - intros (h & ns & d & Hi & K1 & K2 & K3 & K4). exists (h, ns). split; [exact Hi|].
    cbn [fst snd]. rewrite K1, K2, K3, K4, N.eqb_refl. reflexivity.
Qed.

(* usage comparison is the exact rational comparison 100*used/total >= t/100 *)
Theorem usage_ge_spec used total t : 0 < total -> used <= total ->
  (usage_ge (used, total) t = true <-> t * total <= 10000 * used).
Proof.
  intros Ht Hu. unfold usage_ge. destruct (Z.eqb_spec total 0); [lia|]. destruct (Z.ltb_spec total used); [lia|]. apply Z.leb_le.
Qed.
