From Coq Require Import ZArith NArith Bool List Lia.
From Mysync Require Import Base.Prog Base.ProgFacts Base.Config Procs.ActiveNodes Procs.Switchover Procs.OfflineMode
  Proofs.NodeOpsProofs Proofs.ActiveNodesProofs Proofs.SwitchoverProofs.
Import ListNotations.
Open Scope Z_scope.

Lemma prim_is_recovery_needed s h : prim s (DcsGet (PRecovery h)) (is_recovery_needed s h). Proof. prim_tac. Qed.
Lemma prim_startup_time s h : prim s (Sql h SStartupTime) (startup_time s h). Proof. prim_tac. Qed.
#[export] Hint Resolve prim_is_recovery_needed prim_startup_time : prim.

(* what one replica's pass may issue, by site: 1644 = offline for lag, 1679 =
   offline as permanently broken, 1632 = online *)
Definition slave_call_ok (cfg : config) (env : off_env) (h : host) (ns ms : node_state) (pending : list (N * Z)) (s : site) (c : call) : Prop :=
  match c with
  | Sql x SSetOffline =>
      x = h /\
      ((s = 1644 /\ ns_offline ns = false /\ ns_ro ms = false /\
        (exists lag, slave_lag ns = Some lag /\ c_offline_enable_lag cfg < lag) /\ can_set_offline cfg env h pending = true) \/
       (s = 1679 /\ ns_offline ns = false /\ perm_broken ns = true))
  | Sql x SSetOnline =>
      x = h /\ ns_offline ns = true /\ perm_broken ns = false /\ exists lag, slave_lag ns = Some lag /\ lag <= c_offline_disable_lag cfg
  | Sql x (SSetFlush _) | Sql x (SSetSyncBinlog _) => x = h
  | Sql _ SStartupTime | Sql _ SReplSettings => True
  | DcsGet _ | DcsCreate _ _ | DcsSet PLastShutdown _ | Now => True
  | _ => False
  end.

Theorem slave_offline_calls cfg env h ns ms pending :
  allcalls (slave_call_ok cfg env h ns ms pending) (repair_slave_offline cfg env h ns ms pending).
Proof.
  (* the procedure's local function [cont] is kept folded until it has a name *)
  cbv beta delta [repair_slave_offline]. destruct (slave_lag ns) as [lag|] eqn:El; [|exact I].
  destruct (ns_offline ns && (lag <=? c_offline_disable_lag cfg)) eqn:Ea.
  - apply andb_true_iff in Ea. destruct Ea as [Eo Hl]. apply Z.leb_le in Hl. cbv zeta.
    destruct (perm_broken ns) eqn:Eb; [exact I|].
    unfold set_default_repl_settings.
    walk ltac:(first [exact I|reflexivity|exact (conj eq_refl (conj Eo (conj Eb (ex_intro _ lag (conj El Hl)))))]).
  - refine (allcalls_bind _ _ _ _ _).
    { destruct (ns_offline ns) eqn:Eo; [exact I|]. destruct (ns_ro ms) eqn:Er; [exact I|].
      destruct (Z.ltb_spec (c_offline_enable_lag cfg) lag) as [Hl|Hl]; [|exact I].
      destruct (can_set_offline cfg env h pending) eqn:Ec; [|exact I].
      walk ltac:(first [exact I|exact (conj eq_refl (or_introl (conj eq_refl (conj Eo (conj Er (conj (ex_intro _ lag (conj El Hl)) Ec))))))]). }
    intros p1. cbv beta. destruct (perm_broken ns) eqn:Eb; [|exact I].
    (* the shutdown of a broken replica is the same continuation after every answer about the last shutdown *)
    set (shutdown := fun last : Z => bind (now_ 1673) _).
    assert (G : forall last, allcalls (slave_call_ok cfg env h ns ms pending) (shutdown last)).
    { intros last. unfold shutdown. destruct (ns_offline ns) eqn:Eo; cbn [negb andb]; walk ltac:(first [exact I|exact (conj eq_refl (or_intror (conj eq_refl (conj Eo Eb))))]). }
    clearbody shutdown. apply allcalls_do; [exact I|]. intros r. cbv zeta.
    apply (last_shutdown_cases r _ _ _ _ (allcalls _)); [exact G| |exact I|exact (G 0)]. walk ltac:(first [exact I|apply G]).
Qed.

Theorem slave_between_thresholds_untouched cfg env h ns ms pending lag :
  slave_lag ns = Some lag -> perm_broken ns = false ->
  c_offline_disable_lag cfg < lag <= c_offline_enable_lag cfg ->
  repair_slave_offline cfg env h ns ms pending = Ret pending.
Proof.
  (* [cont] stays folded, as above: the rewrites see it once *)
  intros El Eb [H1 H2]. cbv beta delta [repair_slave_offline]. rewrite El, Eb.
  replace (lag <=? c_offline_disable_lag cfg) with false by (symmetry; apply Z.leb_gt; exact H1).
  replace (c_offline_enable_lag cfg <? lag) with false by (symmetry; apply Z.ltb_ge; exact H2).
  rewrite !andb_false_r. reflexivity.
Qed.

Theorem can_set_offline_spec cfg env h pending : 0 < c_offline_max_pct cfg < 100 ->
  let az := zone_of env h in
  let same := filter (fun '(x, ns) => negb (ns_is_master ns) && N.eqb (zone_of env x) az) (oe_state env) in
  let total := Z.of_nat (length same) in
  let offline := Z.of_nat (length (filter (fun '(_, ns) => ns_offline ns) same)) in
  (can_set_offline cfg env h pending = true <->
   0 < total /\ (100 * (offline + pending_get az pending + 1)) / total <= c_offline_max_pct cfg).
Proof.
  intros [Hlo Hhi]. cbn zeta. unfold can_set_offline.
  destruct (Z.leb_spec (c_offline_max_pct cfg) 0) as [K1|K1]; [lia|]. destruct (Z.leb_spec 100 (c_offline_max_pct cfg)) as [K2|K2]; [lia|].
  match goal with |- context [Z.of_nat (length ?l) =? 0] => set (T := Z.of_nat (length l)) end.
  destruct (Z.eqb_spec T 0) as [E|E].
  - split; [discriminate|]. intros [K _]. lia.
  - rewrite Z.leb_le. split; [intros K; split; [unfold T in *; lia|exact K]|tauto].
Qed.

(* the master: set online only when offline and the recovery mark was read as absent *)
Definition master_call_ok (h : host) (ns : node_state) (c : call) : Prop :=
  match c with
  | Sql x SSetOnline => x = h /\ ns_offline ns = true
  | DcsGet (PRecovery x) => x = h
  | _ => False
  end.
Theorem master_offline_calls h ns : allcalls (fun _ c => master_call_ok h ns c) (repair_master_offline h ns).
Proof.
  unfold repair_master_offline. destruct (ns_offline ns) eqn:E; [|exact I].
  walk ltac:(first [exact I|reflexivity|exact (conj eq_refl E)]).
Qed.
Theorem master_marked_stays_offline h ns e1 tr1 v o :
  ns_offline ns = true ->
  runs (repair_master_offline h ns) (e1 :: tr1) o ->
  ev_resp e1 = RVal v ->
  ev_call e1 = DcsGet (PRecovery h) /\ tr1 = [].
Proof.
  intros Eo H Hr. unfold repair_master_offline, is_recovery_needed in H. rewrite Eo in H.
  cbn [bind runs] in H. destruct H as (_ & Hc & H). rewrite Hr in H. cbn in H. destruct H as [-> _]. auto.
Qed.
