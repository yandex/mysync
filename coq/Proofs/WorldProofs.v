(* The world run is one of the runs of the oracle semantics.  Where a procedure LEADS in the world is proved by walking
   through it call by call ([wleads]): one pass of the repair (C10), a fence of the lost state (C08), joining and leaving
   the acknowledging group (C04), relaxing and restoring the durability settings (C19), offline mode (C17). *)
From Coq Require Import ZArith NArith Bool List Lia Permutation.
From Mysync Require Import Gtid.GtidSet Base.Prog Base.ProgFacts Base.Config Env.World
  Procs.NodeOps Procs.Lost Procs.ActiveNodes Procs.Switchover Procs.Repair Procs.DiskGuard Procs.OfflineMode Procs.Optimization
  Proofs.NodeOpsProofs Proofs.ActiveNodesProofs Proofs.RepairProofs.
Import ListNotations.
Open Scope Z_scope.

(* the sequential execution of the branches, to talk about the nested fix of [wrun] *)
Fixpoint wgo (bs : list (host * prog resp)) (w : world) : option (list (host * resp)) * site * world * trace :=
  match bs with
  | [] => (Some [], 0, w, [])
  | (h, b) :: r =>
      match wrun b w with
      | (Done x, w1, t1) =>
          match wgo r w1 with
          | (Some rs, s0, w2, t2) => (Some ((h, x) :: rs), s0, w2, t1 ++ t2)
          | (None, s0, w2, t2) => (None, s0, w2, t1 ++ t2)
          end
      | (Panicked s0, w1, t1) => (None, s0, w1, t1)
      end
  end.
Lemma wrun_par {A} s bs (k : list (host * resp) -> prog A) w :
  wrun (Par s bs k) w =
  match wgo bs w with
  | (Some rs, _, w1, t1) => let '(o, w2, t2) := wrun (k rs) w1 in (o, w2, t1 ++ t2)
  | (None, s0, w1, t1) => (Panicked s0, w1, t1)
  end.
Proof. reflexivity. Qed.

Definition wreplay (tr : trace) (w : world) : world := fold_left (fun w e => fst (wstep w (ev_call e))) tr w.
Lemma wreplay_app t1 t2 w : wreplay (t1 ++ t2) w = wreplay t2 (wreplay t1 w).
Proof. apply fold_left_app. Qed.

Lemma wrun_sound {A} (p : prog A) : forall w,
  runs p (wtrace (wrun p w)) (wout (wrun p w)) /\ wworld (wrun p w) = wreplay (wtrace (wrun p w)) w.
Proof.
  revert A p. apply (prog_ind_par (fun A p => forall w,
    runs p (wtrace (wrun p w)) (wout (wrun p w)) /\ wworld (wrun p w) = wreplay (wtrace (wrun p w)) w)).
  - intros A a w. cbn. auto.
  - intros A s w. cbn. auto.
  - intros A s c k IH w. cbn [wrun]. destruct (wstep w c) as [w1 r] eqn:Ew. destruct (IH r w1) as [R W].
    destruct (wrun (k r) w1) as [[o w2] tr]. split; [cbn; auto|]. cbn [wworld wtrace fst snd wreplay fold_left ev_call] in W |- *.
    rewrite Ew. exact W.
  - intros A s bs k IHb IHk w. rewrite wrun_par.
    (* the branches ran one after the other: the concatenation of their traces is one interleaving *)
    assert (G : forall w0, match wgo bs w0 with
                           | (Some rs, _, w1, t1) => w1 = wreplay t1 w0 /\ exists ts, branch_runs bs ts rs None /\ concat ts = t1
                           | (None, s0, w1, t1) => w1 = wreplay t1 w0 /\ exists ts rs, branch_runs bs ts rs (Some s0) /\ concat ts = t1
                           end).
    { clear IHk. induction bs as [|[h b] r IHr]; intros w0; cbn [wgo]; [split; [reflexivity|]; exists []; split; [constructor|reflexivity]|].
      destruct (IHb h b (or_introl eq_refl) w0) as [Rb Wb]. destruct (wrun b w0) as [[[x|s0] w1] tb]; cbn [wtrace wout wworld fst snd] in Rb, Wb.
      - specialize (IHr (fun h' b' Hin => IHb h' b' (or_intror Hin)) w1).
        destruct (wgo r w1) as [[[[rs|] s1] w2] t2]; destruct IHr as [W2 IHr]; (split; [rewrite wreplay_app, <- Wb; exact W2|]).
        + destruct IHr as (ts & B & <-). exists (tb :: ts). split; [constructor; assumption|reflexivity].
        + destruct IHr as (ts & rs & B & <-). exists (tb :: ts), ((h, x) :: rs). split; [constructor; assumption|reflexivity].
      - split; [exact Wb|]. exists [tb], []. split; [constructor; exact Rb|apply app_nil_r]. }
    specialize (G w). destruct (wgo bs w) as [[[[rs|] s1] w1] t1]; destruct G as [-> G].
    + destruct G as (ts & B & <-). destruct (IHk rs (wreplay (concat ts) w)) as [Rk Wk]. destruct (wrun (k rs) (wreplay (concat ts) w)) as [[o w2] t2].
      cbn [wtrace wout wworld fst snd] in *. split; [|rewrite wreplay_app; exact Wk].
      apply runs_par. exists ts, rs, None, (concat ts). split; [exact B|]. split; [apply interleave_concat|]. exists t2, rs. auto.
    + destruct G as (ts & rs & B & <-). split; [|reflexivity].
      apply runs_par. exists ts, rs, (Some s1), (concat ts). split; [exact B|]. split; [apply interleave_concat|]. split; reflexivity.
Qed.

Theorem wrun_runs {A} (p : prog A) : forall w, runs p (wtrace (wrun p w)) (wout (wrun p w)).
Proof. intros w. apply wrun_sound. Qed.

Lemma wreplay_keeps {X} (f : world -> X) (P : site -> call -> Prop) :
  (forall s c w, P s c -> f (fst (wstep w c)) = f w) -> forall tr, Forall (ProgFacts.ev_ok P) tr -> forall w, f (wreplay tr w) = f w.
Proof.
  intros Hstep tr F. induction F as [|e tr He _ IH]; intros w; [reflexivity|]. cbn [wreplay fold_left]. rewrite (IH _). exact (Hstep _ _ w He).
Qed.
Lemma wrun_keeps {X} (f : world -> X) (P : site -> call -> Prop) :
  (forall s c w, P s c -> f (fst (wstep w c)) = f w) ->
  forall A (p : prog A), allcalls P p -> forall w, f (wworld (wrun p w)) = f w.
Proof.
  intros Hstep A p H w. destruct (wrun_sound p w) as [R ->]. exact (wreplay_keeps f P Hstep _ (allcalls_sound P p H _ _ R) w).
Qed.

Lemma wrun_bind {A B} (p : prog A) (f : A -> prog B) : forall w,
  wrun (bind p f) w =
  match wrun p w with
  | (Done a, w1, t1) => let '(o2, w2, t2) := wrun (f a) w1 in (o2, w2, t1 ++ t2)
  | (Panicked s, w1, t1) => (Panicked s, w1, t1)
  end.
Proof.
  induction p as [a|s|s c k IH|s bs k IH] using prog_ind_k; intros w.
  - cbn [bind wrun]. destruct (wrun (f a) w) as [[o2 w2] t2]. reflexivity.
  - reflexivity.
  - cbn [bind wrun]. destruct (wstep w c) as [w1 r]. rewrite IH. destruct (wrun (k r) w1) as [[o w2] tr]. destruct o as [a|s0]; [|reflexivity].
    destruct (wrun (f a) w2) as [[o2 w3] t2]. reflexivity.
  - cbn [bind]. rewrite !wrun_par. destruct (wgo bs w) as [[[[rs|] s1] w1] t1]; [|reflexivity].
    rewrite IH. destruct (wrun (k rs) w1) as [[o w2] t2]. destruct o as [a|s0]; [|reflexivity].
    destruct (wrun (f a) w2) as [[o2 w3] t3]. rewrite app_assoc. reflexivity.
Qed.

(* calls that leave the MySQL server as it is (writes to the coordination service are among them) *)
Definition reads_only (c : call) : bool := match c with Sql _ st => stmt_reads st | _ => true end.
Lemma srv_step_reads s st : stmt_reads st = true -> fst (srv_step s st) = s.
Proof. destruct st; cbn; intros H; try discriminate H; reflexivity. Qed.
Lemma wstep_keeps w c : w_host (fst (wstep w c)) = w_host w /\ (reads_only c = true -> w_srv (fst (wstep w c)) = w_srv w).
Proof.
  destruct c as [h st|p|p v|p v| | | | | | | | | | | |]; cbn [wstep reads_only]; try (split; reflexivity).
  - destruct (N.eqb h (w_host w)); [|split; reflexivity]. pose proof (srv_step_reads (w_srv w) st) as E.
    destruct (srv_step (w_srv w) st) as [s' r]. split; [reflexivity|exact E].
  - destruct p; split; reflexivity.
  - destruct p; try (split; reflexivity). destruct v; split; reflexivity.
Qed.
Lemma wrun_host {A} (p : prog A) w : w_host (wworld (wrun p w)) = w_host w.
Proof. apply (wrun_keeps w_host (fun _ _ => True)); [intros; apply wstep_keeps|apply allcalls_True]. Qed.
Lemma wrun_reads {A} (p : prog A) : allcalls (fun _ c => reads_only c = true) p ->
  forall w, w_srv (wworld (wrun p w)) = w_srv w /\ w_host (wworld (wrun p w)) = w_host w.
Proof.
  intros H w. split; [|apply wrun_host]. apply (wrun_keeps w_srv (fun _ c => reads_only c = true)); [|exact H].
  intros _ c w0. apply wstep_keeps.
Qed.

(* Run from [w], [p] returns, and its result and the world it leaves satisfy [Q].  The rules keep the program in the
   goal and consume it call by call. *)
Definition wleads {A} (p : prog A) (w : world) (Q : A -> world -> Prop) : Prop :=
  exists a, wout (wrun p w) = Done a /\ Q a (wworld (wrun p w)).

Lemma wleads_run {A} (p : prog A) w (F : outcome A * world * trace -> Prop) :
  (forall tr, wleads p w (fun a w' => F (Done a, w', tr))) -> F (wrun p w).
Proof.
  intros H. destruct (H (wtrace (wrun p w))) as (a & O & K). destruct (wrun p w) as [[o w'] tr]. cbn in O, K. rewrite O. exact K.
Qed.

Lemma wleads_ret {A} (a : A) w (Q : A -> world -> Prop) : Q a w -> wleads (Ret a) w Q.
Proof. intros H. exists a. split; [reflexivity|exact H]. Qed.

Lemma wleads_do {A} s c (k : resp -> prog A) w Q :
  wleads (k (snd (wstep w c))) (fst (wstep w c)) Q -> wleads (Do s c k) w Q.
Proof.
  intros (a & O & H). exists a. cbn [wrun]. destruct (wstep w c) as [w1 r]. cbn [fst snd] in O, H.
  destruct (wrun (k r) w1) as [[o w2] tr]. exact (conj O H).
Qed.

Lemma wleads_after {A B} (p : prog A) (f : A -> prog B) w Q R :
  wleads p w Q -> (forall a w', Q a w' -> wleads (f a) w' R) -> wleads (bind p f) w R.
Proof.
  intros (a & O & HQ) Hf. destruct (Hf a _ HQ) as (b & O2 & HR). exists b. rewrite wrun_bind.
  destruct (wrun p w) as [[o w1] t1]. unfold wout, wworld in O, O2, HR. cbn [fst snd] in O, O2, HR. subst o.
  destruct (wrun (f a) w1) as [[o2 w2] t2]. exact (conj O2 HR).
Qed.

Definition set_srv (w : world) (s : srv) : world :=
  {| w_host := w_host w; w_srv := s; w_now := w_now w; w_created := w_created w; w_active := w_active w |}.
Lemma wstep_sql w h st : w_host w = h ->
  wstep w (Sql h st) = (set_srv w (fst (srv_step (w_srv w) st)), snd (srv_step (w_srv w) st)).
Proof. intros <-. cbn [wstep]. rewrite N.eqb_refl. destruct (srv_step (w_srv w) st). reflexivity. Qed.
Lemma wleads_sql {A} s h st (k : resp -> prog A) w s' r Q : w_host w = h -> srv_step (w_srv w) st = (s', r) ->
  wleads (k r) (set_srv w s') Q -> wleads (Do s (Sql h st) k) w Q.
Proof. intros Hh E H. apply wleads_do. rewrite (wstep_sql w h st Hh), E. exact H. Qed.

Lemma wleads_quiet {A} (p : prog A) w : allcalls (fun _ c => reads_only c = true) p -> nopanic p ->
  wleads p w (fun _ w' => w_srv w' = w_srv w /\ w_host w' = w_host w).
Proof.
  intros Ha Hn. destruct (nopanic_sound p Hn _ _ (wrun_runs p w)) as [a E]. exists a. split; [exact E|exact (wrun_reads p Ha w)].
Qed.

(* The walk: a one-call procedure, alone or in front of a bind, unfolds to its [Do] by conversion, so the rules apply
   to it as it stands; [wcbn] then feeds the answer to the continuation and reads the changed server (no zeta: the
   [let]s of the model stay folded).  [Hh] says whose server the world holds.  [wsql] is for a statement whose effect
   [srv_step] computes as the server stands; where that depends on a hypothesis, [wleads_sql] is given the equation;
   [wcall] is any other call, [wret] the return. *)
Ltac wcbn := cbn beta iota delta [bind wstep srv_step fst snd negb orb Bool.eqb wout wworld set_srv w_srv w_host
  with_ro with_chan with_offline with_semi with_durability chan_running threads
  s_ro s_sro s_offline s_chan s_semi_m s_semi_s s_wait s_flush s_sync s_exec s_retr c_source c_io c_sql c_io_errno c_sql_errno].
Ltac wsql Hh := eapply wleads_sql; [exact Hh|reflexivity|]; wcbn.
Ltac wcall := apply wleads_do; wcbn.
Ltac wret := apply wleads_ret; wcbn.

Definition fresh_running (m : host) : chan := {| c_source := m; c_io := true; c_sql := true; c_io_errno := 0; c_sql_errno := 0 |}.

(* STOP REPLICA leaves no thread running, with or without a channel, so CHANGE SOURCE is accepted; START REPLICA then
   runs both threads *)
Lemma repoint_srv s m : exists s1 s2, srv_step s SStopRepl = (s1, ROk) /\ srv_step s1 (SChangeSource m) = (s2, ROk) /\
  srv_step s2 SStartRepl = (with_chan s (Some (fresh_running m)) [], ROk).
Proof. destruct s as [ro sro off [c|] sm ss wt fl sy ex re]; eexists; eexists; (split; [reflexivity|split; reflexivity]). Qed.

Lemma change_master_leads cfg h m w : w_host w = h -> h <> m ->
  wleads (perform_change_master cfg h m) w
    (fun e w' => e = None /\ w_host w' = h /\ w_srv w' = with_chan (w_srv w) (Some (fresh_running m)) []).
Proof.
  intros Hh Hne. unfold perform_change_master. destruct (N.eqb_spec h m) as [E|_]; [contradiction|].
  destruct (repoint_srv (w_srv w) m) as (s1 & s2 & E1 & E2 & E3).
  eapply wleads_sql; [exact Hh|exact E1|]. wcbn. eapply wleads_sql; [exact Hh|exact E2|]. wcbn.
  eapply wleads_sql; [exact Hh|exact E3|]. wcbn. wcall.
  eapply wleads_after; [exact (wleads_quiet _ _ (ac_wait_repl_start _ _ _ _ eq_refl eq_refl eq_refl) (np_wait_repl_start _ _ _))|].
  intros _ w' [R1 R2]. wret. rewrite R1, R2. split; [reflexivity|]. split; [exact Hh|reflexivity].
Qed.

(* what getNodeState sees of the server (fault-free) *)
Definition observed_as (s : srv) (casc : bool) (ns : node_state) : Prop :=
  ns_ping_ok ns = true /\ ns_ro ns = s_ro s /\ ns_offline ns = s_offline s /\ ns_is_cascade ns = casc /\
  ns_is_master ns = (match s_chan s with None => true | Some _ => false end) /\ ns_slave ns = status_of s.

Lemma observe_world h casc w : w_host w = h ->
  exists ns tr, wrun (get_node_state h casc) w = (Done ns, {| w_host := w_host w; w_srv := w_srv w; w_now := w_now w + 1; w_created := w_created w; w_active := w_active w |}, tr)
               /\ observed_as (w_srv w) casc ns.
Proof.
  intros Hh. apply wleads_run; intros tr. cbv beta delta [get_node_state]. wcall. do 5 wsql Hh.
  (* the split comes while [s_chan (w_srv w)] does not occur in the goal: nothing is abstracted *)
  destruct (s_chan (w_srv w)) as [c|] eqn:Ec; unfold observed_as, status_of; rewrite Ec.
  - wsql Hh. wret. eexists. eexists. repeat (split; [reflexivity|]). reflexivity.
  - wsql Hh. wsql Hh. wret. eexists. eexists. repeat (split; [reflexivity|]). reflexivity.
Qed.

Definition replica_ok (m : host) (s : srv) : Prop :=
  s_ro s = true /\ exists c, s_chan s = Some c /\ c_source c = m /\ c_io c = true /\ c_sql c = true.
Definition no_repl_error (s : srv) : Prop :=
  match s_chan s with Some c => c_io_errno c = 0 /\ c_sql_errno c = 0 | None => True end.

Lemma set_read_only_leads h super w : w_host w = h ->
  wleads (set_read_only_once h super) w (fun e w' => e = None /\ w' = set_srv w (with_ro (w_srv w) true super)).
Proof.
  intros Hh. unfold set_read_only_once. wsql Hh. wsql Hh. rewrite eqb_reflx. wret. split; reflexivity.
Qed.

Lemma stop_repl_on_master_leads h w : w_host w = h ->
  wleads (stop_replication_on_master h) w
    (fun _ w' => w_host w' = h /\ s_chan (w_srv w') = s_chan (w_srv w) /\ s_ro (w_srv w') = s_ro (w_srv w)).
Proof. intros Hh. unfold stop_replication_on_master. wsql Hh. wsql Hh. wret. split; [exact Hh|split; reflexivity]. Qed.

Lemma set_recovery_leads h w : wleads (set_recovery h) w (fun _ w' => w_srv w' = w_srv w).
Proof. unfold set_recovery. wcall. wcall. wcall. wcall. wret. reflexivity. Qed.

Lemma mark_running_no_history cfg h mem v :
  rm_repair mem = [] -> mark_replication_running cfg h (set_failed_at mem h v) = Ret (set_failed_at mem h v).
Proof. intros Hm. unfold mark_replication_running, set_failed_at. cbn [rm_repair]. rewrite Hm. reflexivity. Qed.

(* C10, the convergence step: one pass of the repair of a reachable HA replica whose replication is not in error
   leaves it read-only and a running replica of the recorded master - from ANY combination of read-only flags,
   replication source (the master, another host, none: a stale master) and thread states. *)
Theorem replica_repair_converges cfg env h ns mem w :
  w_host w = h -> h <> re_master env -> observed_as (w_srv w) false ns -> no_repl_error (w_srv w) ->
  rm_repair mem = [] ->
  (exists a, wout (wrun (repair_slave_node cfg env h ns mem) w) = Done a) /\
  replica_ok (re_master env) (w_srv (wworld (wrun (repair_slave_node cfg env h ns mem) w))).
Proof.
  intros Hh Hne (Hping & Hro & Hoff & Hcasc & Hmaster & Hslave) Herr Hmem.
  enough (L : wleads (repair_slave_node cfg env h ns mem) w (fun _ w' => replica_ok (re_master env) (w_srv w'))).
  { destruct L as (a & O & H). split; [exists a; exact O|exact H]. }
  unfold repair_slave_node, status_of, no_repl_error in *. rewrite Hro, Hmaster, Hcasc.
  apply wleads_after with (Q := fun _ w1 => w_host w1 = h /\ s_ro (w_srv w1) = true /\ s_chan (w_srv w1) = s_chan (w_srv w)).
  { destruct (s_ro (w_srv w)) eqn:Er; cbn [negb]; [wret; auto|].
    eapply wleads_after; [exact (set_read_only_leads h true w Hh)|]. intros e w1 [_ ->]. wret. auto. }
  intros _ w1 (H1 & R1 & C1). destruct (s_chan (w_srv w)) as [c|].
  - (* it has a channel; its errors are excluded, so what follows the repair of the threads is a return *)
    destruct Herr as [Ei Es]. rewrite Hslave. unfold repl_state_of. cbn [negb bind rs_source rs_io rs_sql rs_io_errno rs_sql_errno].
    rewrite Ei, Es, (mark_running_no_history cfg h mem None Hmem). cbn [Z.eqb andb].
    apply wleads_after with (Q := fun _ w2 => replica_ok (re_master env) (w_srv w2)).
    2: { intros _ w2 Hok. destruct (c_io c && c_sql c); wret; exact Hok. }
    destruct (N.eqb_spec (c_source c) (re_master env)) as [Esrc|Nsrc]; cbn [negb].
    +
      destruct (c_io c && c_sql c) eqn:Erun.
      * wret. apply andb_true_iff in Erun. split; [exact R1|]. exists c. rewrite C1. tauto.
      * eapply wleads_sql; [exact H1|cbn [srv_step]; rewrite C1; reflexivity|]. wcbn. wret.
        split; [exact R1|]. exists (threads c true true). auto.
    +
      eapply wleads_after; [exact (change_master_leads cfg h _ w1 H1 Hne)|]. intros _ w2 (_ & _ & S2). wret.
      rewrite S2. split; [exact R1|]. exists (fresh_running (re_master env)). auto.
  -
    eapply wleads_after; [exact (stop_repl_on_master_leads h w1 H1)|]. intros _ w2 (H2 & _ & R2).
    eapply wleads_after; [exact (change_master_leads cfg h _ w2 H2 Hne)|]. intros _ w3 (_ & _ & S3).
    eapply wleads_after; [apply set_recovery_leads|]. intros e4 w4 S4. wret.
    rewrite S4, S3. split; [rewrite <- R1, <- R2; reflexivity|]. exists (fresh_running (re_master env)). auto.
Qed.

(* the premises are satisfiable: a writable replica of the wrong source with a stopped SQL thread *)
Definition w_example : world :=
  {| w_host := 2%N;
     w_srv := {| s_ro := false; s_sro := false; s_offline := false;
                 s_chan := Some {| c_source := 3%N; c_io := true; c_sql := false; c_io_errno := 0; c_sql_errno := 0 |};
                 s_semi_m := false; s_semi_s := true; s_wait := 1; s_flush := 1; s_sync := 1; s_exec := []; s_retr := [] |};
     w_now := 0; w_created := []; w_active := [1%N; 2%N] |}.
Lemma world_premises_hold : exists ns, observed_as (w_srv w_example) false ns /\ no_repl_error (w_srv w_example) /\ ~ replica_ok 1%N (w_srv w_example).
Proof.
  destruct (observe_world 2%N false w_example eq_refl) as (ns & tr & _ & H). exists ns. split; [exact H|]. split; [cbn; auto|].
  intros [K _]. discriminate K.
Qed.

Definition looks_only (c : call) : bool :=
  match c with Sql _ st => stmt_reads st | DcsGet _ | DcsChildren _ | Now | Sleep _ => true | _ => false end.
Theorem converged_replica_left_alone cfg env h ns mem rs :
  ns_ro ns = true -> ns_is_master ns = false -> ns_is_cascade ns = false -> ns_slave ns = Some rs ->
  rs_source rs = re_master env -> rs_io rs = true -> rs_sql rs = true ->
  allcalls (fun _ c => looks_only c = true) (repair_slave_node cfg env h ns mem).
Proof.
  intros Hro Hm Hc Hs Hsrc Hio Hsql. unfold repair_slave_node. rewrite Hro, Hm, Hc, Hs. cbn [negb bind].
  rewrite Hsrc, N.eqb_refl. cbn [negb]. unfold repl_state_of. rewrite Hio, Hsql. cbn [andb bind].
  unfold mark_replication_running, cooldown_passed. walk ltac:(first [exact I|reflexivity]).
Qed.

(* C10, the master's side: "bring the master online, writable".  With no disk-usage report in the health records (disk
   pressure is not among the dimensions of C10) the disk guard decides by the master's read_only flag alone ... *)
Lemma guard_fold_no_reports cfg m dcs : (forall h ns, In (h, ns) dcs -> ns_disk ns = None) ->
  forall acc, fold_left (guard_step cfg m) dcs acc = acc.
Proof.
  induction dcs as [|[h ns] r IH]; intros Hd acc; [reflexivity|]. cbn [fold_left].
  unfold guard_step at 2. rewrite (Hd h ns (or_introl eq_refl)). apply IH. intros h' ns' Hin. apply (Hd h' ns'). right. exact Hin.
Qed.
Lemma guard_no_reports cfg m ms dcs : (forall h ns, In (h, ns) dcs -> ns_disk ns = None) ->
  guard_decide cfg m ms dcs = if negb (ns_ro ms) then GaNone else GaSetWritable.
Proof.
  intros Hd. unfold guard_decide. rewrite (guard_fold_no_reports cfg m dcs Hd). cbn. reflexivity.
Qed.

(* ... and one fault-free pass of repairMasterNode leaves the master writable (read_only = super_read_only = 0) from ANY
   combination of the two flags; a writable master gets no statement that changes it *)
Theorem master_repair_unfences cfg env ms w :
  w_host w = re_master env -> ns_ro ms = s_ro (w_srv w) ->
  (forall h ns, In (h, ns) (re_state_dcs env) -> ns_disk ns = None) ->
  wout (wrun (repair_master_node cfg env ms) w) = Done tt /\
  s_ro (w_srv (wworld (wrun (repair_master_node cfg env ms) w))) = false /\
  (s_ro (w_srv w) = true -> s_sro (w_srv (wworld (wrun (repair_master_node cfg env ms) w))) = false) /\
  (s_ro (w_srv w) = false -> w_srv (wworld (wrun (repair_master_node cfg env ms) w)) = w_srv w).
Proof.
  intros Hh Hro Hd. apply wleads_run; intros tr. unfold repair_master_node, repair_read_only_on_master.
  rewrite (guard_no_reports cfg _ ms _ Hd), Hro. destruct (s_ro (w_srv w)) eqn:Er; cbn [negb].
  - wsql Hh. wcall. wsql Hh. wret. split; [reflexivity|]. split; [reflexivity|]. split; [reflexivity|discriminate].
  - wcbn. wsql Hh. wret. split; [reflexivity|]. split; [exact Er|]. split; [discriminate|reflexivity].
Qed.

(* the master is brought online: a master that is offline and not marked for recovery is set online by one pass *)
Theorem master_offline_repair_brings_online h ns w :
  w_host w = h -> ns_offline ns = s_offline (w_srv w) ->
  wout (wrun (repair_master_offline h ns) w) = Done tt /\
  s_offline (w_srv (wworld (wrun (repair_master_offline h ns) w))) = false /\
  s_ro (w_srv (wworld (wrun (repair_master_offline h ns) w))) = s_ro (w_srv w).
Proof.
  intros Hh Hoff. apply wleads_run; intros tr. unfold repair_master_offline. rewrite Hoff. destruct (s_offline (w_srv w)) eqn:Eo.
  - wcall. wsql Hh. wret. split; [reflexivity|split; reflexivity].
  - wret. split; [reflexivity|split; [exact Eo|reflexivity]].
Qed.

Lemma looks_only_reads c : looks_only c = true -> reads_only c = true.
Proof. destruct c; cbn; auto. Qed.

(* C10, the fixed point ("repeated manager iterations"): the canonical state of a replica is stable - a further pass over
   a server that is a read-only running replica of the recorded master leaves the server exactly as it is.  Together
   with [replica_repair_converges]: one pass reaches the canonical state, every later pass stays in it. *)
Theorem replica_fixed_point cfg env h ns mem w :
  observed_as (w_srv w) false ns -> replica_ok (re_master env) (w_srv w) ->
  w_srv (wworld (wrun (repair_slave_node cfg env h ns mem) w)) = w_srv w.
Proof.
  intros (Hping & Hro & Hoff & Hcasc & Hmaster & Hslave) (Kro & c & Kc & Ksrc & Kio & Ksql).
  apply wrun_reads. eapply allcalls_impl; [intros s c0; apply looks_only_reads|].
  unfold status_of in Hslave. rewrite Kc in Hslave, Hmaster.
  eapply converged_replica_left_alone; [rewrite Hro; exact Kro | exact Hmaster | exact Hcasc | exact Hslave | | | ]; cbn; assumption.
Qed.

Theorem replica_repair_twice cfg env h ns mem w ns2 mem2 :
  w_host w = h -> h <> re_master env -> observed_as (w_srv w) false ns -> no_repl_error (w_srv w) -> rm_repair mem = [] ->
  let w1 := wworld (wrun (repair_slave_node cfg env h ns mem) w) in
  observed_as (w_srv w1) false ns2 ->
  replica_ok (re_master env) (w_srv w1) /\
  w_srv (wworld (wrun (repair_slave_node cfg env h ns2 mem2) w1)) = w_srv w1.
Proof.
  intros Hh Hne Hobs Herr Hmem w1 Hobs2.
  assert (Hh1 : w_host w1 = h) by (unfold w1; rewrite wrun_host; exact Hh).
  destruct (replica_repair_converges cfg env h ns mem w Hh Hne Hobs Herr Hmem) as [_ Hok]. fold w1 in Hok.
  split; [exact Hok|]. apply replica_fixed_point; assumption.
Qed.

Lemma set_read_only_with_force_leads fuel h super w : w_host w = h ->
  wleads (set_read_only_with_force fuel h super) w (fun e w' => e = None /\ w' = set_srv w (with_ro (w_srv w) true super)).
Proof.
  intros Hh. unfold set_read_only_with_force. eapply wleads_after; [exact (set_read_only_leads h super w Hh)|].
  intros e w' [-> ->]. wret. split; reflexivity.
Qed.

(* C08: a FENCE decision of the lost state leaves the local server read-only (super_read_only too), whatever its flags were,
   master or replica, and the handler stays in the Lost state keeping its loss clock *)
Theorem fence_leaves_read_only local is_master la w : w_host w = local ->
  wout (wrun (lost_act local is_master (LdFence la)) w) = Done (StLost, la) /\
  s_ro (w_srv (wworld (wrun (lost_act local is_master (LdFence la)) w))) = true /\
  s_sro (w_srv (wworld (wrun (lost_act local is_master (LdFence la)) w))) = true.
Proof.
  intros Hh. apply wleads_run; intros tr. unfold lost_act. destruct is_master.
  - unfold fence_master. eapply wleads_after; [exact (set_read_only_with_force_leads _ local true w Hh)|].
    intros e w' [-> ->]. wret. split; [reflexivity|split; reflexivity].
  - unfold fence_replica. eapply wleads_after; [exact (set_read_only_leads local true w Hh)|].
    intros e w' [-> ->]. wsql Hh. wret. split; [reflexivity|split; reflexivity].
Qed.

(* C04: a replica that joins: acknowledgement enabled on the server, the receiver thread running again (restarted so that
   the setting takes effect), and the call reports success *)
Theorem join_makes_acknowledging h ss ms mg rs c w :
  w_host w = h -> ns_master_gtid ms = Some mg -> ns_slave ss = Some rs -> s_chan (w_srv w) = Some c ->
  wout (wrun (enable_semi_sync_on_slave h (Some ss) ms) w) = Done None /\
  s_semi_s (w_srv (wworld (wrun (enable_semi_sync_on_slave h (Some ss) ms) w))) = true /\
  s_semi_m (w_srv (wworld (wrun (enable_semi_sync_on_slave h (Some ss) ms) w))) = false /\
  (exists c', s_chan (w_srv (wworld (wrun (enable_semi_sync_on_slave h (Some ss) ms) w))) = Some c' /\ c_io c' = true /\ c_source c' = c_source c).
Proof.
  intros Hh Hm Hs Hc. apply wleads_run; intros tr. unfold enable_semi_sync_on_slave. rewrite Hm, Hs. wsql Hh.
  destruct (slave_ahead (rs_executed rs) mg); [unfold restart_replica|unfold restart_io];
    wsql Hh; rewrite Hc; wsql Hh; wret;
    (split; [reflexivity|]); (split; [reflexivity|]); (split; [reflexivity|]); eexists; (split; [reflexivity|split; reflexivity]).
Qed.

(* a replica that leaves: acknowledgement switched off on the server (with or without the receiver restart) *)
Theorem leave_stops_acknowledging h restart c w :
  w_host w = h -> s_chan (w_srv w) = Some c ->
  wout (wrun (disable_semi_sync_on_slave h restart) w) = Done None /\
  s_semi_s (w_srv (wworld (wrun (disable_semi_sync_on_slave h restart) w))) = false.
Proof.
  intros Hh Hc. apply wleads_run; intros tr. unfold disable_semi_sync_on_slave. wsql Hh. destruct restart.
  - unfold restart_io. wsql Hh. rewrite Hc. wsql Hh. wret. split; reflexivity.
  - wret. split; reflexivity.
Qed.

Lemma set_repl_settings_leads s1 s2 h rs w : w_host w = h ->
  wleads (set_repl_settings s1 s2 h rs) w (fun e w' => e = None /\ w' = set_srv w (with_durability (w_srv w) (fst rs) (snd rs))).
Proof. intros Hh. unfold set_repl_settings. wsql Hh. wsql Hh. wret. split; reflexivity. Qed.
Lemma optimize_leads h w : w_host w = h ->
  wleads (optimize_replication h) w (fun e w' => e = None /\ w' = set_srv w (with_durability (w_srv w) 2 1000)).
Proof. exact (set_repl_settings_leads _ _ h (2, 1000) w). Qed.

Theorem restore_sets_both s1 s2 h rs w : w_host w = h ->
  wout (wrun (set_repl_settings s1 s2 h rs) w) = Done None /\
  s_flush (w_srv (wworld (wrun (set_repl_settings s1 s2 h rs) w))) = fst rs /\
  s_sync (w_srv (wworld (wrun (set_repl_settings s1 s2 h rs) w))) = snd rs.
Proof.
  intros Hh. destruct (set_repl_settings_leads s1 s2 h rs w Hh) as (e & O & -> & ->). split; [exact O|split; reflexivity].
Qed.

(* C19, the round trip: a server relaxed by mysync and then restored to the master's settings runs with exactly those, and
   nothing else on it has changed compared with setting them directly *)
Theorem relax_then_restore s1 s2 h rs w : w_host w = h ->
  w_srv (wworld (wrun (set_repl_settings s1 s2 h rs) (wworld (wrun (optimize_replication h) w)))) =
  with_durability (w_srv w) (fst rs) (snd rs).
Proof.
  intros Hh. destruct (optimize_leads h w Hh) as (e1 & _ & _ & ->).
  destruct (set_repl_settings_leads s1 s2 h rs (set_srv w (with_durability (w_srv w) 2 1000)) Hh) as (e2 & _ & _ & ->). reflexivity.
Qed.

(* C17: an online replica whose lag exceeds the enable threshold, under a writable master, replication not permanently broken,
   the zone cap allowing it: after the pass the server is in offline mode and the zone's counter of this pass went up by one *)
Theorem lagging_replica_goes_offline cfg env h ns ms pending lag w :
  w_host w = h -> slave_lag ns = Some lag -> ns_offline ns = false -> ns_ro ms = false ->
  (c_offline_enable_lag cfg <? lag) = true -> can_set_offline cfg env h pending = true -> perm_broken ns = false ->
  wout (wrun (repair_slave_offline cfg env h ns ms pending) w) =
    Done (assoc_set (zone_of env h) (pending_get (zone_of env h) pending + 1) pending) /\
  s_offline (w_srv (wworld (wrun (repair_slave_offline cfg env h ns ms pending) w))) = true /\
  s_ro (w_srv (wworld (wrun (repair_slave_offline cfg env h ns ms pending) w))) = s_ro (w_srv w).
Proof.
  intros Hh Hl Ho Hm Hg Hc Hb. apply wleads_run; intros tr. cbv beta delta [repair_slave_offline].
  (* the body's [let]s stay folded (each use of [cont] would copy it); [Hl], [Hb] first: they remove the two large branches not taken *)
  rewrite Hl, Hb. cbn [negb]. rewrite Ho. cbn [andb negb]. rewrite Hm, Hg, Hc. cbn [andb negb].
  wsql Hh. wcall. wret. split; [reflexivity|split; reflexivity].
Qed.

(* a replica that is online and not lagging beyond the threshold is not touched *)
Theorem healthy_replica_stays_online cfg env h ns ms pending lag w :
  slave_lag ns = Some lag -> ns_offline ns = false -> (c_offline_enable_lag cfg <? lag) = false -> perm_broken ns = false ->
  wrun (repair_slave_offline cfg env h ns ms pending) w = (Done pending, w, []).
Proof.
  intros Hl Ho Hg Hb. cbv beta delta [repair_slave_offline]. rewrite Hl, Hb. cbn [negb]. rewrite Ho. cbn [andb negb]. rewrite Hg, andb_false_r. reflexivity.
Qed.
