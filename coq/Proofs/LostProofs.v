From Coq Require Import ZArith NArith Bool List Lia.
From Mysync Require Import Base.Prog Base.ProgFacts Base.Config Procs.NodeOps Procs.Lost Proofs.NodeOpsProofs.
Import ListNotations.
Open Scope Z_scope.

(* what the lost-state handler may ever do: read anything; on the LOCAL node
   only: make it read-only, cut sessions (offline), disable semi-sync, kill
   sessions.  Nothing else - no coordination write, nothing on another host. *)
Definition lost_call_ok (local : host) (c : call) : Prop :=
  match c with
  | Sql h st =>
      if stmt_reads st then True
      else match st with
           | SSetRO _ | SSetOffline | SSemiDisable | SKill _ => h = local
           | _ => False
           end
  | DcsConnected | Now | Peek _ => True
  | _ => False
  end.

Lemma ac_probe cfg local h : allcalls (fun _ c => lost_call_ok local c) (probe_replica cfg local h).
Proof. unfold probe_replica. walk ltac:(exact I). Qed.

Lemma ac_check_ha cfg env : allcalls (fun _ c => lost_call_ok (le_local env) c) (check_ha_replicas_running cfg env).
Proof.
  unfold check_ha_replicas_running. cbn [allcalls]. split.
  - apply (all_branches_map _ (le_ha_hosts env) (fun h => h)). intros h _. apply ac_probe.
  - intros rs. walk ltac:(exact I).
Qed.

Lemma ac_force fuel local super : allcalls (fun _ c => lost_call_ok local c) (set_read_only_with_force fuel local super).
Proof. apply ac_set_read_only_with_force; first [reflexivity|intros ?; reflexivity|exact I|intros ?; exact I]. Qed.

Lemma ac_lost_act local is_master d : allcalls (fun _ c => lost_call_ok local c) (lost_act local is_master d).
Proof.
  unfold lost_act, fence_master, fence_replica, stop_replication_on_master.
  walk ltac:(first [exact I|reflexivity|match goal with
    | |- allcalls _ (set_read_only_with_force _ _ _) => apply ac_force
    | |- allcalls _ (set_read_only _ _) => apply ac_set_read_only_once; [reflexivity|exact I]
    end]).
Qed.

Theorem state_lost_allcalls cfg env : allcalls (fun _ c => lost_call_ok (le_local env) c) (state_lost cfg env).
Proof.
  unfold state_lost. split; [exact I|]. intros c.
  (* every answer but "connected" leads to the same rest *)
  set (rest := if lost_static_noop cfg env then _ else _).
  assert (G : allcalls (fun _ c0 => lost_call_ok (le_local env) c0) rest).
  { unfold rest. walk ltac:(first [exact I|match goal with
      | |- allcalls _ (get_node_state _ _) => apply ac_get_node_state; unfold gns_calls_ok; cbn; tauto
      | |- allcalls _ (check_ha_replicas_running _ _) => apply ac_check_ha
      | |- allcalls _ (lost_act _ _ _) => apply ac_lost_act
      end]). }
  destruct c; try exact G. destruct b; [exact I|exact G].
Qed.

Theorem state_lost_trace_ok cfg env tr o : runs (state_lost cfg env) tr o ->
  Forall (fun e => lost_call_ok (le_local env) (ev_call e)) tr.
Proof. intros H. exact (allcalls_sound _ _ (state_lost_allcalls cfg env) tr o H). Qed.

Theorem state_lost_noop cfg env tr o : lost_static_noop cfg env = true ->
  runs (state_lost cfg env) tr o ->
  exists r, tr = [{| ev_site := 260; ev_call := DcsConnected; ev_resp := r |}] /\
            (o = Done (StCandidate, None) \/ o = Done (StLost, le_lost_at env)).
Proof.
  intros Hn. unfold state_lost.
  (* without a live group to judge, what follows the connectivity test is no call at all *)
  set (rest := if lost_static_noop cfg env then _ else _).
  assert (Er : rest = Ret (StLost, le_lost_at env)) by (unfold rest; rewrite Hn; reflexivity).
  clearbody rest. subst rest.
  revert tr o. refine (holds_do _ _ _ _ _). intros [s c r] Es Ec. cbn [ev_site ev_call ev_resp] in *. subst s c.
  destruct r; try destruct b; apply holds_ret; (eexists; split; [reflexivity|auto]).
Qed.

Lemma lost_decide_eq cfg env is_master repl_running has_unreach now now2 :
  let t0 := match le_lost_at env with Some t => t | None => now end in
  lost_decide cfg env is_master repl_running has_unreach now now2 =
  if is_master && repl_running then LdLive
  else if has_unreach then (if now2 - t0 <=? c_inactivation_delay cfg then LdPostpone (Some t0) else LdFence (Some t0))
  else LdFence (le_lost_at env).
Proof.
  unfold lost_decide. destruct (is_master && repl_running); [reflexivity|]. destruct has_unreach; [|reflexivity].
  destruct (le_lost_at env); reflexivity.
Qed.

Theorem lost_decide_fence_iff cfg env is_master repl_running has_unreach now now2 :
  (exists la, lost_decide cfg env is_master repl_running has_unreach now now2 = LdFence la) <->
  (is_master && repl_running = false) /\
  (has_unreach = false \/
   now2 - (match le_lost_at env with Some t => t | None => now end) > c_inactivation_delay cfg).
Proof.
  rewrite lost_decide_eq. cbv zeta. destruct (is_master && repl_running).
  - split; [intros [la H]; discriminate|intros [H _]; discriminate].
  - destruct has_unreach; [|split; eauto]. destruct (Z.leb_spec (now2 - match le_lost_at env with Some t => t | None => now end) (c_inactivation_delay cfg)) as [Hle|Hgt]; split.
    + intros [la K]; discriminate.
    + intros [_ [K|K]]; [discriminate|lia].
    + intros _. split; [reflexivity|right; lia].
    + intros _. eauto.
Qed.

Theorem lost_decide_postpone_bounded cfg env is_master repl_running has_unreach now now2 la :
  lost_decide cfg env is_master repl_running has_unreach now now2 = LdPostpone la ->
  has_unreach = true /\ exists t, la = Some t /\ now2 - t <= c_inactivation_delay cfg.
Proof.
  rewrite lost_decide_eq. cbv zeta. destruct (is_master && repl_running); [discriminate|].
  destruct has_unreach; [|discriminate]. destruct (Z.leb_spec (now2 - match le_lost_at env with Some t => t | None => now end) (c_inactivation_delay cfg)); [|discriminate].
  intros E; injection E as <-. eauto.
Qed.

Definition is_set_ro (local : host) (c : call) : Prop := exists s, c = Sql local (SSetRO s).

Theorem lost_act_no_fence local is_master d : (forall la, d <> LdFence la) ->
  lost_act local is_master d = Ret (StLost, match d with LdPostpone la => la | _ => None end).
Proof. destruct d as [|la|la]; intros H; [reflexivity|reflexivity|exfalso; eapply H; reflexivity]. Qed.

Theorem lost_act_fence_starts_with_read_only local is_master la tr o :
  runs (lost_act local is_master (LdFence la)) tr o ->
  exists e tr', tr = e :: tr' /\ ev_call e = Sql local (SSetRO true).
Proof.
  intros H. eapply runs_head; [|exact H]. destruct is_master; reflexivity.
Qed.

Theorem repl_running_spec_semisync (available w : Z) : (w <=? available) = true <-> w <= available.
Proof. apply Z.leb_le. Qed.
