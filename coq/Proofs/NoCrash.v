(* C20: no run of a manager iteration ends in a crash, whatever the calls answer (Panic = a nil dereference or index
   error of the Go code).  Most procedures have no crash leaf ([nopanic]).  The others sit behind a lookup in one of
   the two views of the cluster and are unreachable: both views are built over the SAME host list, on which the recorded
   master is checked to be.  That needs [post] (Base/Post.v): the join of a parallel section gets one result per branch. *)
From Coq Require Import ZArith NArith Bool List Lia Permutation.
From Mysync Require Import Gtid.GtidSet Pure.Quorum Base.Prog Base.ProgFacts Base.Post Base.Config
  Procs.NodeOps Procs.Lost Procs.DiskGuard Procs.ActiveNodes Procs.Switchover Procs.OfflineMode Procs.Repair Procs.Optimization Procs.Manager
  Proofs.NodeOpsProofs Proofs.ActiveNodesProofs Proofs.SwitchoverProofs Proofs.OfflineProofs Proofs.OptimizationProofs
  Proofs.ManagerProofs Proofs.RepairProofs.
Import ListNotations.
Open Scope Z_scope.

(* [npw]: [walk] whose leaves are calls of procedures with a lemma in the hint database [np] (or among the hypotheses),
   and which enters a parallel section with one branch per element of a list ([nopanic_par_map]).
   A [let] of the model, where [cbv beta delta [f]] has kept it, becomes a variable ([open_let], Base/ProgFacts.v):
   [intros x _] forgets its value, [intros x E] keeps it as an equation. *)
Create HintDb np discriminated.
#[local] Hint Constants Opaque : np. (* the database is large: procedures are matched by name, never unfolded *)

Lemma nopanic_par_map {X A} s (f : X -> host * prog resp) l (k : list (host * resp) -> prog A) :
  (forall x, nopanic (snd (f x))) -> (forall rs, nopanic (k rs)) -> nopanic (Par s (map f l) k).
Proof. intros Hb Hk. split; [apply all_branches_mapf; intros x _; apply Hb|exact Hk]. Qed.
Lemma post_par_np {X A} Q (R : A -> Prop) s (f : X -> host * prog resp) l k :
  (forall x, nopanic (snd (f x))) ->
  (forall rs, Permutation (map fst (map f l)) (map fst rs) ->
     (forall h r, In (h, r) rs -> exists b, In (h, b) (map f l) /\ can_ret b r) -> post Q R (k rs)) ->
  post Q R (Par s (map f l) k).
Proof. intros Hb Hk. split; [apply all_branches_mapf; intros x _; apply panics_in_post, nopanic_panics_in, Hb|exact Hk]. Qed.

Ltac npw := walk ltac:(first [solve [auto with np nocore] | exact I | open_let; intros ? _
                             | apply nopanic_par_map; [intros ?; cbn [snd]|intros ?]]).
#[local] Hint Resolve np_stop_timing np_log_failure np_start_timing_at np_approve np_issue np_update_hosts disable_all_nopanic enable_loop_nopanic : np.

Lemma np_set_read_only_once h super : nopanic (set_read_only_once h super).
Proof. unfold set_read_only_once. npw. Qed.
Lemma np_set_read_only h super : nopanic (set_read_only h super). Proof. apply np_set_read_only_once. Qed.

Lemma np_kill_loop fuel h : nopanic (kill_loop fuel h).
Proof.
  induction fuel as [|f IH]; cbn [kill_loop]; [exact I|].
  walk ltac:(first [exact I | exact IH | apply nopanic_forM_; intros ? _]).
Qed.
#[local] Hint Resolve np_set_read_only_once np_set_read_only np_kill_loop : np.

Lemma np_set_read_only_with_force fuel h super : nopanic (set_read_only_with_force fuel h super).
Proof.
  unfold set_read_only_with_force. npw. cbn [nopanic]. split; [split; [npw|split; [npw|exact I]]|intros rs; npw].
Qed.

Lemma np_gns_fail h ns : nopanic (gns_fail h ns).
Proof. unfold gns_fail. npw. Qed.
#[local] Hint Resolve np_set_read_only_with_force np_gns_fail : np.
Lemma np_get_node_state h casc : nopanic (get_node_state h casc).
Proof. cbv beta delta [get_node_state]. npw. Qed.
#[local] Hint Resolve np_get_node_state : np.

(* the [if] at the head of a [post] goal *)
Ltac case_if := match goal with |- post _ _ (if ?c then _ else _) => case c end.
(* past a first step that has no crash leaf *)
Ltac skip_np := apply post_bind_np; [npw|].

Definition functional {V} (l : list (host * V)) : Prop := forall h v, In (h, v) l -> assoc h l = Some v.
Definition view_ok {V} (hosts : list (host * bool)) (cs : list (host * V)) : Prop :=
  map fst cs = map fst hosts /\ functional cs.

Lemma in_keys_assoc {V} h (l : list (host * V)) : In h (map fst l) -> exists v, assoc h l = Some v.
Proof.
  induction l as [|[k w] r IH]; cbn [map fst assoc]; [intros []|]. destruct (N.eqb_spec h k) as [->|Hne].
  - intros _. exists w. reflexivity.
  - intros [E|H]; [exfalso; apply Hne; symmetry; exact E|exact (IH H)].
Qed.
Lemma mem_keys_assoc {V} h (l : list (host * V)) : mem_host h (map fst l) = true -> exists v, assoc h l = Some v.
Proof. intros H. apply in_keys_assoc. apply ActiveNodesProofs.mem_host_In. exact H. Qed.

Lemma view_ok_key {V hosts} {cs : list (host * V)} {h} : view_ok hosts cs -> In h (map fst hosts) -> In h (map fst cs).
Proof. intros [K _] H. rewrite K. exact H. Qed.
Lemma view_ok_lookup {V hosts} {cs : list (host * V)} {h} : view_ok hosts cs -> In h (map fst hosts) -> exists v, assoc h cs = Some v.
Proof. intros V0 H. apply in_keys_assoc. exact (view_ok_key V0 H). Qed.

Lemma functional_of_fun {V} (F : host -> option V) l : (forall h v, In (h, v) l -> F h = Some v) -> functional l.
Proof.
  induction l as [|[k w] r IH]; intros H h v Hin; [destruct Hin|]. cbn [assoc]. destruct (N.eqb_spec h k) as [->|Hne].
  - rewrite <- (H k w (or_introl eq_refl)). exact (H k v Hin).
  - destruct Hin as [E|Hin]; [injection E as -> _; contradiction|]. apply IH; [|exact Hin]. intros h' v' H'. apply H. right. exact H'.
Qed.

Lemma view_of_results (hosts : list (host * bool)) (rs : list (host * resp)) :
  (forall h c, In (h, c) hosts -> exists ns, assoc h rs = Some (RNodeState ns)) ->
  view_ok hosts (flat_map (fun '((h, _) : host * bool) => match assoc h rs with Some (RNodeState ns) => [(h, ns)] | _ => [] end) hosts).
Proof.
  intros H. split.
  - induction hosts as [|[h c] r IH]; [reflexivity|]. cbn [flat_map map fst].
    destruct (H h c (or_introl eq_refl)) as [ns E]. rewrite E. cbn [app map fst]. f_equal. apply IH. intros h' c' Hin'. apply (H h' c'). right. exact Hin'.
  - apply (functional_of_fun (fun h => match assoc h rs with Some (RNodeState ns) => Some ns | _ => None end)).
    intros h v Hin. apply in_flat_map in Hin. destruct Hin as ([k c] & _ & Hin).
    destruct (assoc k rs) as [x|] eqn:E; [|destruct Hin]. destruct x; try contradiction. destruct Hin as [K|[]].
    injection K as <- <-. rewrite E. reflexivity.
Qed.

Lemma results_have_key (bs : list (host * prog resp)) (rs : list (host * resp)) h :
  Permutation (map fst bs) (map fst rs) -> In h (map fst bs) -> exists r, assoc h rs = Some r /\ In (h, r) rs.
Proof.
  intros Hp Hin. destruct (in_keys_assoc h rs (Permutation_in _ Hp Hin)) as [r E]. exists r. split; [exact E|exact (assoc_some_in _ _ _ E)].
Qed.
Lemma listed_host_has_result {X} (f : host * X -> host * prog resp) l (rs : list (host * resp)) h (c : X) :
  Permutation (map fst (map f l)) (map fst rs) -> In (h, c) l -> (forall x, fst (f x) = fst x) ->
  exists r, assoc h rs = Some r /\ In (h, r) rs.
Proof.
  intros Hp Hin Hf. apply (results_have_key _ rs h Hp). rewrite map_map. apply in_map_iff. exists (h, c). split; [apply Hf|exact Hin].
Qed.

Lemma rets_node_state_branch h casc :
  rets (fun r => exists ns, r = RNodeState ns) (ns <- get_node_state h casc ;; Ret (RNodeState ns)).
Proof. apply rets_bind. intros ns. cbn [rets]. exists ns. reflexivity. Qed.

Theorem cluster_state_from_db_view s hosts :
  post (fun _ => False) (fun cs => view_ok hosts cs) (cluster_state_from_db s hosts).
Proof.
  unfold cluster_state_from_db. apply post_par_np; [intros [h c]; cbn [snd]; npw|].
  intros rs Hperm Hres. apply view_of_results. intros h c Hin.
  destruct (listed_host_has_result _ _ _ _ _ Hperm Hin) as (r & Ea & Hr); [intros []; reflexivity|].
  destruct (Hres h r Hr) as (b & Hb & Hc).
  destruct (branch_result_rets _ (fun r => exists ns, r = RNodeState ns) _ _ _ _ Hb Hc) as [ns ->]; [intros [h0 c0]; apply rets_node_state_branch|].
  exists ns. exact Ea.
Qed.

Lemma rets_health_of h : rets (fun r => match r with RNodeState _ | RErr _ => True | _ => False end) (health_of h).
Proof. unfold health_of. cbn [rets]. intros r. destruct r; try exact I. destruct e; exact I. Qed.

Theorem cluster_state_from_dcs_view s hosts :
  post (fun _ => False) (fun o => match o with Some csd => view_ok hosts csd | None => True end) (cluster_state_from_dcs s hosts).
Proof.
  unfold cluster_state_from_dcs. apply post_par_np; [intros [h c]; cbn [snd]; unfold health_of; npw|].
  intros rs Hperm _. destruct (existsb _ rs) eqn:Ex; [exact I|]. cbn [post]. apply view_of_results. intros h c Hin.
  destruct (listed_host_has_result _ _ _ _ _ Hperm Hin) as (r & Ea & Hr); [intros []; reflexivity|].
  (* the join saw no answer but node states *)
  assert (K : (fun '(_, r) => match r with RNodeState _ => false | _ => true end) (h, r) = false).
  { apply not_true_is_false. intros T. apply (eq_true_false_abs _ (proj2 (existsb_exists _ _) (ex_intro _ (h, r) (conj Hr T))) Ex). }
  cbn in K. destruct r; try discriminate K.
  exists ns. exact Ea.
Qed.

Definition member_ok (env : an_env) (h : host) : Prop :=
  h = ae_master env \/
  exists ns, In (h, ns) (ae_state env) /\
    ((ns_ping_ok ns = true /\ ns_slave ns <> None) \/ (ns_ping_ok ns = false /\ mem_host h (ae_old_active env) = true)).

Lemma np_calc_active_host cfg env rec mg mem hn :
  In (fst hn) (map fst (ae_state_dcs env)) -> nopanic (calc_active_host cfg env rec mg mem hn).
Proof.
  intros Hk. destruct hn as [h ns]. unfold calc_active_host. destruct (in_keys_assoc h _ Hk) as [dns ->]. npw.
Qed.

Lemma rets_calc_active_host cfg env rec mg mem h ns : In (h, ns) (ae_state env) ->
  rets (fun x => fst x = true -> member_ok env h) (calc_active_host cfg env rec mg mem (h, ns)).
Proof.
  intros Hin. refine (rets_impl _ _ _ _ (calc_active_host_member cfg env rec mg mem h ns)).
  intros x K E. destruct (K E) as [->|(_ & _ & Hup & Hdown)]; [left; reflexivity|]. right. exists ns. split; [exact Hin|].
  destruct (ns_ping_ok ns).
  - left. destruct (Hup eq_refl) as (rs & -> & _). split; [reflexivity|discriminate].
  - right. split; [reflexivity|]. apply ActiveNodesProofs.mem_host_In. exact (Hdown eq_refl).
Qed.

Lemma sort_hosts_in h l : In h (sort_hosts l) -> In h l.
Proof.
  assert (INS : forall x l0, In h (insert_sorted x l0) -> h = x \/ In h l0).
  { intros x l0. induction l0 as [|y r IH]; cbn [insert_sorted].
    - intros [E|[]]; left; symmetry; exact E.
    - destruct (N.leb x y).
      + intros [E|K]; [left; symmetry; exact E|right; exact K].
      + intros [E|K]; [right; left; exact E|]. destruct (IH K) as [E|K2]; [left; exact E|right; right; exact K2]. }
  unfold sort_hosts. induction l as [|x r IH]; cbn [fold_right]; [intros []|].
  intros H. destruct (INS _ _ H) as [E|K]; [left; symmetry; exact E|right; exact (IH K)].
Qed.

Lemma post_calc_active_loop cfg env rec mg l : forall mem,
  incl l (ae_state env) -> incl (map fst l) (map fst (ae_state_dcs env)) ->
  post (fun _ => False) (fun x => Forall (member_ok env) (fst x)) (calc_active_loop cfg env rec mg mem l).
Proof.
  induction l as [|[h ns] r IH]; intros mem Hi Hk; cbn [calc_active_loop]; [cbn [post fst]; constructor|].
  eapply post_bind.
  - apply post_of_nopanic; [apply np_calc_active_host; apply Hk; left; reflexivity|apply (rets_calc_active_host cfg env rec mg mem h ns); apply Hi; left; reflexivity].
  - intros [member mem1] Hm. cbn [fst] in Hm. eapply post_bind.
    + apply IH; [intros x Hx; apply Hi; right; exact Hx|intros x Hx; apply Hk; right; exact Hx].
    + intros [rest mem2] Hr. cbn [fst] in Hr. cbn [post fst]. destruct member; [constructor; [apply Hm; reflexivity|exact Hr]|exact Hr].
Qed.

Lemma post_calc_active_nodes cfg env mem :
  incl (map fst (ae_state env)) (map fst (ae_state_dcs env)) ->
  post (fun _ => False) (fun x => match fst x with Some l => Forall (member_ok env) l | None => True end) (calc_active_nodes cfg env mem).
Proof.
  intros Hk. unfold calc_active_nodes.
  skip_np. intros [recovery e]. destruct e; [exact I|].
  skip_np. intros [mgtid e2]. destruct e2; [exact I|].
  eapply post_bind; [apply post_calc_active_loop; [apply incl_refl|exact Hk]|].
  intros [l mem1] Hl. exact (incl_Forall (fun h => sort_hosts_in h l) Hl).
Qed.

Lemma np_lag_loop cfg env bl l : forall ina lag pos,
  (forall h, In h l -> exists ns, assoc h (ae_state env) = Some ns /\ ns_slave ns <> None) ->
  nopanic (lag_loop cfg env bl l ina lag pos).
Proof.
  induction l as [|h r IH]; intros ina lag pos H; cbn [lag_loop]; [exact I|].
  destruct (H h (or_introl eq_refl)) as (ns & -> & Hs). destruct (ns_slave ns) as [rs|]; [|contradiction].
  assert (K : forall h0, In h0 r -> exists ns0, assoc h0 (ae_state env) = Some ns0 /\ ns_slave ns0 <> None) by (intros h0 H0; apply H; right; exact H0).
  destruct (_ <? _); [|apply IH; exact K]. destruct (pos_le _ _); apply IH; exact K.
Qed.

(* the hosts calc_changes is about to measure the lag of are members that are not dead, or - when the list
   held the master alone - members other than the master: either way their state has a replication status *)
Lemma become_active_have_slave env active sync h :
  functional (ae_state env) -> In (ae_master env) (map fst (ae_state env)) -> Forall (member_ok env) active ->
  let dead := map fst (filter (fun '(_, ns) => negb (ns_ping_ok ns) || match ns_slave ns with None => true | Some _ => false end) (ae_state env)) in
  let ba0 := filter_out (filter_out active sync) dead in
  In h (match ae_old_active env, ba0 with
        | [o], [] => if N.eqb o (ae_master env) then filter (fun h => negb (N.eqb h (ae_master env))) active else ba0
        | _, _ => ba0
        end) ->
  exists ns, assoc h (ae_state env) = Some ns /\ ns_slave ns <> None.
Proof.
  intros Hf Hm Ha dead ba0. rewrite Forall_forall in Ha.
  assert (G0 : In h ba0 -> exists ns, assoc h (ae_state env) = Some ns /\ ns_slave ns <> None).
  { intros Hh. apply filter_In in Hh. destruct Hh as [Hact Hnd]. apply filter_out_In in Hact.
    assert (In h (map fst (ae_state env))) as Hk.
    { destruct (Ha h Hact) as [->|(ns & Hin & _)]; [exact Hm|exact (in_map fst _ _ Hin)]. }
    destruct (in_keys_assoc h _ Hk) as [ns1 E]. exists ns1. split; [exact E|].
    intros Hs. apply assoc_some_in in E.
    assert (In h dead) as Hd. { apply (in_map fst _ (h, ns1)). apply filter_In. split; [exact E|]. rewrite Hs. apply orb_true_r. }
    apply mem_host_In in Hd. rewrite Hd in Hnd. discriminate Hnd. }
  destruct (ae_old_active env) as [|o [|o2 rest]] eqn:Eo; try exact G0.
  destruct ba0 as [|b0 br]; [|exact G0].
  destruct (N.eqb_spec o (ae_master env)) as [->|Hne]; [|intros []].
  intros Hh. apply filter_In in Hh. destruct Hh as [Hact Hnm].
  destruct (Ha h Hact) as [->|(ns & Hin & [[Hp Hs]|[Hp Ho]])].
  - rewrite N.eqb_refl in Hnm. discriminate Hnm.
  - exists ns. split; [apply Hf; exact Hin|exact Hs].
  - exfalso. rewrite Eo in Ho. cbn in Ho. rewrite orb_false_r in Ho. rewrite Ho in Hnm. discriminate Hnm.
Qed.

Lemma np_calc_changes cfg env active mem :
  functional (ae_state env) -> In (ae_master env) (map fst (ae_state env)) ->
  Forall (member_ok env) active -> nopanic (calc_changes cfg env active mem).
Proof.
  intros Hf Hm Ha. unfold calc_changes.
  match goal with |- nopanic (match ?l with _ => _ end) =>
    assert (G : forall h, In h l -> exists ns, assoc h (ae_state env) = Some ns /\ ns_slave ns <> None)
      by (intros h Hh; exact (become_active_have_slave env active _ h Hf Hm Ha Hh));
    generalize dependent l end.
  intros [|b1 br1] G; [exact I|]. walk ltac:(first [exact I | apply np_lag_loop; exact G]).
Qed.

Lemma np_adjust master ms w : nopanic (adjust_semi_sync_on_master master ms w).
Proof. unfold adjust_semi_sync_on_master. npw. Qed.
Lemma np_restart_io h : nopanic (restart_io h).
Proof. unfold restart_io. npw. Qed.
#[local] Hint Resolve np_adjust np_restart_io : np.
Lemma np_disable_slave h b : nopanic (disable_semi_sync_on_slave h b).
Proof. unfold disable_semi_sync_on_slave. npw. Qed.
#[local] Hint Resolve np_disable_slave : np.
Lemma np_disable_slaves ina lag : nopanic (disable_semi_sync_on_slaves ina lag).
Proof.
  unfold disable_semi_sync_on_slaves. npw. apply nopanic_forM_. intros h _. npw.
Qed.
Lemma np_can_shrink master old new : nopanic (can_shrink master old new).
Proof. unfold can_shrink. npw. Qed.
#[local] Hint Resolve np_disable_slaves np_can_shrink : np.

Theorem update_active_nodes_nocrash cfg env mem :
  functional (ae_state env) -> In (ae_master env) (map fst (ae_state env)) ->
  incl (map fst (ae_state env)) (map fst (ae_state_dcs env)) ->
  nocrash (update_active_nodes cfg env mem).
Proof.
  intros Hf Hm Hk. unfold update_active_nodes.
  destruct (in_keys_assoc _ _ Hm) as [ms ->].
  eapply post_bind; [apply post_calc_active_nodes; exact Hk|]. intros [oactive mem1] Ha. cbn [fst] in Ha.
  destruct oactive as [active|]; [|exact I].
  apply nocrash_of_nopanic. destruct (negb (c_semi_sync cfg)).
  - apply nopanic_par_map; [|intros _; npw]. intros [h ns]. unfold disable_semi_sync_if_not_needed. cbn [snd]. npw.
  - pose proof (np_calc_changes cfg env active mem1 Hf Hm Ha). npw.
Qed.

Lemma update_active_nodes_nocrash_views cfg env mem hosts :
  view_ok hosts (ae_state env) -> view_ok hosts (ae_state_dcs env) -> In (ae_master env) (map fst hosts) ->
  nocrash (update_active_nodes cfg env mem).
Proof.
  intros [K Hf] [Kd _] Hm. apply update_active_nodes_nocrash; [exact Hf|rewrite K; exact Hm|rewrite K, Kd; apply incl_refl].
Qed.

Lemma find_best_result fuel cfg env topo self : forall path r, path <> [] ->
  find_best_stream_from fuel cfg env topo self path = Ret r ->
  r = re_master env \/ (exists c, assoc r (re_state env) = Some c) \/
  (exists me rs, assoc self (re_state env) = Some me /\ ns_repl_running me = true /\ ns_slave me = Some rs /\ N.eqb (rs_source rs) r = true).
Proof.
  induction fuel as [|f IH]; intros path r Hne H; [inversion H; left; reflexivity|].
  rewrite find_best_S in H. pose proof (fb_next_spec cfg env topo self path) as K. destruct (fb_next cfg env topo self path) as [r'|sf].
  - injection H as ->. destruct K as [->|(_ & _ & [Es|(cand & Ec & _)])]; [left; reflexivity| |right; left; exists cand; exact Ec].
    right. right. unfold fb_streaming in Es. destruct path as [|x [|y t]]; try discriminate Es.
    destruct (assoc self (re_state env)) as [me|]; [|discriminate Es].
    apply andb_true_iff in Es. destruct Es as [E1 E2]. destruct (ns_slave me) as [rs|] eqn:Esl; [|discriminate E2].
    exists me, rs. auto.
  - apply (IH (sf :: path) r); [discriminate|exact H].
Qed.

#[local] Hint Resolve np_perform_change_master : np.

Theorem np_repair_cascade_node cfg env topo h ns la :
  h <> re_master env -> assoc h (re_state env) = Some ns -> In (re_master env) (map fst (re_state env)) ->
  nopanic (repair_cascade_node cfg env topo h ns la).
Proof.
  intros Hm Hns Hmk. unfold repair_cascade_node.
  destruct (find_best_returns (S (S (length topo))) cfg env topo h [h]) as [cand Ec]. rewrite Ec. cbn [bind].
  assert (Hself : h <> cand).
  { apply not_eq_sym. apply (find_best_never_self (S (S (length topo))) cfg env topo h [h] cand); [left; reflexivity|exact Hm|exact Ec]. }
  destruct (ns_slave ns) as [rs|] eqn:Esl; [|npw].
  destruct (ns_repl_running ns && N.eqb cand (rs_source rs)) eqn:E1; [exact I|].
  (* the candidate is not the source the replica is streaming from, so it is the master or a host of the view *)
  assert (exists cst, assoc cand (re_state env) = Some cst) as [cst ->]; [|npw].
  destruct (find_best_result _ _ _ _ _ [h] cand ltac:(discriminate) Ec) as [->|[K|(me & rs' & Eme & Erun & Esl' & Esrc)]];
    [apply in_keys_assoc; exact Hmk|exact K|].
  exfalso. rewrite Hns in Eme. inversion Eme; subst me. rewrite Esl in Esl'. inversion Esl'; subst rs'.
  rewrite Erun in E1. cbn [andb] in E1. rewrite N.eqb_sym in E1. rewrite Esrc in E1. discriminate E1.
Qed.

Lemma np_cooldown cfg st : nopanic (cooldown_passed cfg st).
Proof. unfold cooldown_passed. npw. Qed.
Lemma np_reset_algo h m : nopanic (reset_slave_algorithm h m).
Proof. unfold reset_slave_algorithm. npw. Qed.
#[local] Hint Resolve np_cooldown np_reset_algo : np.
Lemma np_try_repair cfg h master mem : nopanic (try_repair_replication cfg h master mem).
Proof. unfold try_repair_replication. npw. Qed.
Lemma np_mark_running cfg h mem : nopanic (mark_replication_running cfg h mem).
Proof. unfold mark_replication_running. npw. Qed.
Lemma np_fetch_topology : nopanic fetch_cascade_topology.
Proof.
  unfold fetch_cascade_topology. apply nopanic_bind; [npw|]. intros c. destruct (snd c); [exact I|].
  induction (fst c) as [|h r IH]; [exact I|]. cbn [nopanic]. intros x. npw.
Qed.
Lemma np_set_recovery h : nopanic (set_recovery h).
Proof. unfold set_recovery. npw. Qed.
#[local] Hint Resolve np_try_repair np_mark_running np_fetch_topology np_set_recovery : np.
#[local] Hint Resolve np_repair_cascade_node : np.

Theorem np_repair_slave_node cfg env h ns mem :
  h <> re_master env -> assoc h (re_state env) = Some ns -> In (re_master env) (map fst (re_state env)) ->
  nopanic (repair_slave_node cfg env h ns mem).
Proof. intros Hne Hns Hmk. unfold repair_slave_node, stop_replication_on_master. npw. Qed.

Lemma np_repair_master_node cfg env ms : nopanic (repair_master_node cfg env ms).
Proof. unfold repair_master_node, repair_read_only_on_master. npw. Qed.
#[local] Hint Resolve np_repair_master_node : np.
#[local] Hint Resolve np_repair_slave_node : np.

Theorem np_repair_cluster cfg env mem :
  In (re_master env) (map fst (re_state env)) -> nopanic (repair_cluster cfg env mem).
Proof.
  intros Hmk. unfold repair_cluster. revert mem.
  induction (re_order env) as [|h r IH]; intros mem; cbn [repair_cluster_loop]; [exact I|].
  destruct (assoc h (re_state env)) as [ns|] eqn:Ens; [|apply IH].
  destruct (negb (ns_ping_ok ns)); [apply IH|].
  destruct (N.eqb_spec h (re_master env)) as [->|Hne]; npw.
Qed.

Lemma np_set_default_repl h m : nopanic (set_default_repl_settings h m).
Proof. unfold set_default_repl_settings. npw. Qed.
#[local] Hint Resolve np_set_default_repl : np.

(* the tail [cont] that all decodings of the last-shutdown record share stays the [let] the model has, and is walked once *)
Lemma np_repair_slave_offline cfg env h ns ms pending : nopanic (repair_slave_offline cfg env h ns ms pending).
Proof.
  cbv beta delta [repair_slave_offline]. case (slave_lag ns); [intros lag|exact I]. open_let. intros broken _.
  case (ns_offline ns && (lag <=? c_offline_disable_lag cfg)); [npw|].
  apply nopanic_bind; [npw|]. intros p1. case (negb broken); [exact I|]. apply nopanic_do. intros r. open_let. intros cont E.
  assert (C : forall last, nopanic (cont last)) by (intros last; rewrite E; npw). clear E.
  apply (last_shutdown_cases r _ _ _ _ nopanic); [exact C|npw|exact I|exact (C 0)].
Qed.
#[local] Hint Resolve np_repair_slave_offline : np.

Theorem np_repair_offline_mode cfg env :
  In (oe_master env) (map fst (oe_state env)) -> nopanic (repair_offline_mode cfg env).
Proof.
  intros Hmk. unfold repair_offline_mode. destruct (in_keys_assoc _ _ Hmk) as [ms ->].
  generalize (@nil (N * Z)) as pending.
  induction (oe_order env) as [|h r IH]; intros pending; cbn [repair_offline_loop]; [exact I|].
  unfold repair_master_offline. npw.
Qed.

Lemma np_set_rs s1 s2 h rs : nopanic (set_repl_settings s1 s2 h rs).
Proof. unfold set_repl_settings. npw. Qed.
#[local] Hint Resolve np_set_rs : np.
Lemma np_stop_nodes env l rs : nopanic (stop_nodes env l rs).
Proof. induction l as [|h r IH]; cbn [stop_nodes]; [exact I|]. npw. Qed.
Lemma np_delete_hosts l : nopanic (delete_hosts l).
Proof. induction l as [|h r IH]; cbn [delete_hosts]; [exact I|]. npw. Qed.
Lemma np_optimize h : nopanic (optimize_replication h).
Proof. exact (np_set_rs 11148 11152 h (2, 1000)). Qed.
#[local] Hint Resolve np_stop_nodes np_delete_hosts np_optimize : np.

(* what the read phase puts into the plan's "optimising" and "disabled" classes are hosts with a health record *)
Definition known_hosts (env : opt_env) (l : list host) : Prop := forall h, In h l -> In h (map fst (ov_states env)).
Definition plan_known (env : opt_env) (p : opt_plan) : Prop := known_hosts env (op_optimizing p) /\ known_hosts env (op_disabled p).

Lemma classify_known env mrs en h c : classify env mrs en (assoc h (ov_states env)) = c -> c = OcOptimizing \/ c = OcDisabled -> In h (map fst (ov_states env)).
Proof.
  intros E Hc. destruct (assoc h (ov_states env)) as [ns|] eqn:Ea; [exact (in_map fst _ _ (assoc_some_in _ _ _ Ea))|].
  cbn in E. subst c. destruct Hc; discriminate.
Qed.

Lemma plan_add_known env mrs en h p : plan_known env p -> plan_known env (plan_add p h (classify env mrs en (assoc h (ov_states env)))).
Proof.
  intros [H1 H2]. destruct (classify env mrs en (assoc h (ov_states env))) eqn:E; cbn [plan_add]; split; cbn; try assumption.
  - intros x Hx. apply in_app_or in Hx. destruct Hx as [Hx|[<-|[]]]; [exact (H1 x Hx)|]. eapply classify_known; [exact E|left; reflexivity].
  - intros x Hx. apply in_app_or in Hx. destruct Hx as [Hx|[<-|[]]]; [exact (H2 x Hx)|]. eapply classify_known; [exact E|right; reflexivity].
Qed.

Lemma post_read_states env mrs l : forall p, plan_known env p ->
  post (fun _ => False) (fun r => match r with RdOk q => plan_known env q | RdErr _ => True end) (read_states env mrs l p).
Proof.
  induction l as [|h r IH]; intros p Hp; cbn [read_states]; [exact Hp|].
  skip_np. intros [[[en|]|] [e|]]; try exact I; apply IH; try apply plan_add_known; exact Hp.
Qed.

Lemma np_sync_node_options env h : In h (ov_cluster env) -> nopanic (sync_node_options env h).
Proof. intros H. apply mem_host_In in H. unfold sync_node_options. rewrite H. cbn [negb]. npw. Qed.

Lemma np_sync_act env mrs p :
  incl (map fst (ov_states env)) (ov_cluster env) -> plan_known env p -> nopanic (sync_act env mrs p).
Proof.
  intros Hk [H1 H2]. unfold sync_act, disable_nodes, balance. apply nopanic_bind; [npw|]. intros [x|]; [exact I|].
  destruct (op_optimizing p) as [|h [|h2 rest]].
  - destruct (op_disabled p) as [|d ds]; [exact I|]. rewrite (proj2 (mem_host_In d _) (Hk d (H2 d (or_introl eq_refl)))). npw.
  - apply np_sync_node_options. exact (Hk h (H1 h (or_introl eq_refl))).
  - pose proof (np_sync_node_options env h (Hk h (H1 h (or_introl eq_refl)))). npw.
Qed.

Theorem opt_sync_nocrash env :
  incl (map fst (ov_states env)) (ov_cluster env) -> In (ov_master env) (ov_cluster env) -> nocrash (opt_sync env).
Proof.
  intros Hk Hm. unfold opt_sync, sync_with.
  apply post_bind_np; [unfold master_settings; rewrite (proj2 (mem_host_In _ _) Hm); npw|].
  intros [mrs e]. cbn [fst snd]. destruct e; [exact I|].
  skip_np. intros [hs e]. cbn [fst snd]. destruct e; [exact I|].
  eapply post_bind; [apply post_read_states; split; intros x []|]. intros [p|x] Hr; [|exact I].
  apply nocrash_of_nopanic. apply np_sync_act; assumption.
Qed.

Definition ctx_ok (m : mgr_mem) (c : tail_ctx) : Prop :=
  view_ok (all_hosts m) (tc_cs c) /\ view_ok (all_hosts m) (tc_csd c) /\ In (tc_master c) (map fst (all_hosts m)).

Theorem manager_tail_nocrash cfg env m c : ctx_ok m c -> nocrash (manager_tail cfg env m c).
Proof.
  intros (Vcs & Vcsd & Hm). unfold manager_tail, tail_envs. pose proof (view_ok_key Vcs Hm) as Hmcs.
  apply post_bind_np; [apply np_repair_offline_mode; exact Hmcs|]. intros _.
  apply post_bind_np; [apply np_repair_cluster; exact Hmcs|]. intros rm.
  destruct (view_ok_lookup Vcsd Hm) as [msd ->].
  skip_np. intros filed. destruct filed; [exact I|].
  eapply post_bind; [eapply update_active_nodes_nocrash_views; [exact Vcs|exact Vcsd|exact Hm]|]. intros ua _.
  skip_np. intros _.
  eapply post_bind; [|intros; exact I].
  apply opt_sync_nocrash; cbn [ov_states ov_cluster ov_master]; [rewrite (proj1 Vcsd); apply incl_refl|exact Hm].
Qed.

Lemma state_ping_known (cs : list (host * node_state)) h : In h (map fst cs) -> exists b, state_ping cs h = Some b.
Proof. intros H. unfold state_ping. destruct (in_keys_assoc _ _ H) as [ns ->]. eauto. Qed.

Lemma np_reenable h : nopanic (reenable_events h).
Proof. unfold reenable_events. npw. Qed.
#[local] Hint Resolve np_reenable : np.

Theorem sw_promote_nocrash cfg env mem active nm mrs :
  In nm (map fst (se_all_hosts env)) -> nocrash (sw_promote cfg env mem active nm mrs).
Proof.
  intros Hnm. unfold sw_promote.
  skip_np. intros l2. case (negb l2); [exact I|].
  eapply post_bind; [apply cluster_state_from_db_view|]. intros cs2 V2.
  destruct (state_ping_known cs2 nm (view_ok_key V2 Hnm)) as [b ->]. destruct b; [|exact I].
  case_if; [exact I|].
  skip_np. intros [x|]; [exact I|].
  apply post_par_np.
  { intros h. cbn [snd]. destruct (state_ping cs2 h) as [pok|]; [|exact I]. destruct (N.eqb_spec h nm) as [->|Hne]; [exact I|]. npw. }
  intros errs3 _ _. case_if; [exact I|].
  skip_np. intros os.
  skip_np. intros [x|]; [exact I|].
  skip_np. intros [x|]; [exact I|].
  skip_np. intros [x|]; [exact I|].
  eapply post_bind; [apply cluster_state_from_db_view|]. intros cs3 V3.
  eapply post_bind; [eapply update_active_nodes_nocrash_views; [exact V3|exact V3|exact Hnm]|]. intros ua _.
  apply nocrash_of_nopanic. npw.
Qed.

Lemma np_async cfg h sw : nopanic (async_switch_allowed cfg h sw).
Proof. unfold async_switch_allowed. npw. Qed.
#[local] Hint Resolve np_async : np.
Lemma np_catch_up fuel cfg h target sw dl : nopanic (wait_for_catch_up fuel cfg h target sw dl).
Proof.
  induction fuel as [|f IH]; cbn [wait_for_catch_up]; [exact I|].
  (* the sleep-and-retry most answers lead to is set aside before the case splits: the goal holds 26 copies of it *)
  set (retry := Do 2308 _ _). assert (S : nopanic retry) by (unfold retry; npw). clearbody retry.
  apply nopanic_bind; [npw|]. intros g. case (snd g); [intros; exact I|]. case (set_contain _ _); [exact I|].
  apply nopanic_do. intros r. apply (pending_request_cases r _ _ _ nopanic); [intros cur|intros _; exact I|]; npw.
Qed.
#[local] Hint Resolve np_catch_up : np.

Theorem sw_after_positions_nocrash cfg env sw mem active positions :
  positions <> [] -> nocrash (sw_after_positions cfg env sw mem active positions).
Proof.
  intros Hne. unfold sw_after_positions. generalize 2000%nat as fuel. intros fuel. destruct positions as [|p0 ps]; [contradiction|].
  unfold most_recent. destruct (detect_splitbrain _ _); [cbn [post]; intros; exact I|].
  set (mrh := p_host _). set (mrs := p_set _).
  destruct (sw_choose cfg sw (p0 :: ps) mrh) as [nm|]; [|exact I].
  destruct (mem_host nm (map fst (se_all_hosts env))) eqn:Ereg; cbn [negb]; [|exact I].
  apply mem_host_In in Ereg.
  apply post_bind_np; [destruct (N.eqb_spec nm mrh) as [->|Hd]; cbn [negb]; npw|]. intros pre. case (negb pre); [exact I|].
  skip_np. intros t0.
  skip_np. intros cu.
  destruct cu as [[|]|]; try exact I. apply sw_promote_nocrash. exact Ereg.
Qed.

Lemma quorum_needs_one ss w n p : check_quorum ss w n p = true -> p <> 0.
Proof.
  unfold check_quorum, failover_quorum. destruct ss; intros H; apply negb_true_iff in H.
  - apply Z.ltb_ge in H. lia.
  - apply Z.eqb_neq in H. exact H.
Qed.

Lemma np_finish sw ok : nopanic (finish_switchover sw ok).
Proof. unfold finish_switchover. npw. Qed.
Lemma np_position_of h : nopanic (position_of h).
Proof. unfold position_of. npw. Qed.
#[local] Hint Resolve np_position_of : np.
Lemma np_node_positions s hosts : nopanic (node_positions s hosts).
Proof. unfold node_positions. npw. Qed.
Lemma np_freeze env h : nopanic (freeze_host env h).
Proof. unfold freeze_host. npw. Qed.
Lemma np_stop_io env h c : nopanic (stop_io_host env h c).
Proof. unfold stop_io_host. npw. Qed.
#[local] Hint Resolve np_finish np_node_positions : np.

Theorem perform_switchover_nocrash cfg env sw mem :
  mem_host (se_old_master env) (map fst (se_all_hosts env)) = true -> view_ok (se_all_hosts env) (se_state env) ->
  nocrash (perform_switchover cfg env sw mem).
Proof.
  intros Hold Vcs. unfold perform_switchover. case_if; [exact I|]. case_if; [exact I|].
  set (active := match sw_cause_ sw with CauseAuto => _ | _ => _ end). rewrite Hold.
  skip_np. intros [x|]; [exact I|].
  apply post_bind_np; [unfold start_timing_now; npw|]. intros _.
  apply post_par_np; [intros h; apply np_freeze|]. intros errs _ _. case_if; [apply nocrash_of_nopanic; npw|].
  destruct (state_ping_known _ _ (view_ok_key Vcs (proj1 (mem_host_In _ _) Hold))) as [b ->].
  apply post_par_np; [intros h; apply np_stop_io|]. intros errs2 _ _. set (frozen := filter _ active).
  destruct (check_quorum _ _ _ _) eqn:Eq; cbn [negb]; [|exact I].
  skip_np. intros l1. case (negb l1); [exact I|].
  skip_np. intros [positions|]; [|exact I].
  destruct (Nat.eqb (length positions) (length frozen)) eqn:El; cbn [negb]; [|exact I].
  case_if; [exact I|].
  apply sw_after_positions_nocrash. intros ->. apply Nat.eqb_eq in El. apply (quorum_needs_one _ _ _ _ Eq). rewrite <- El. reflexivity.
Qed.

Lemma np_ensure cs : nopanic (ensure_current_master cs).
Proof. unfold ensure_current_master. npw. Qed.
#[local] Hint Resolve np_ensure : np.
Lemma np_get_master cs : nopanic (get_current_master cs).
Proof. unfold get_current_master. npw. Qed.

Lemma alive_master_is_key (cs : list (host * node_state)) m : In m (alive_masters cs) -> In m (map fst cs).
Proof. unfold alive_masters. intros H. apply in_map_iff in H. destruct H as (x & E & Hx). apply filter_In in Hx. apply in_map_iff. exists x. split; [exact E|exact (proj1 Hx)]. Qed.

Lemma rets_ensure cs : rets (fun r => match r with MrOk m => In m (map fst cs) | _ => True end) (ensure_current_master cs).
Proof.
  unfold ensure_current_master. destruct (alive_masters cs) as [|m [|m2 r]] eqn:E; try exact I.
  apply rets_bind. intros [x|]; cbn [rets]; [exact I|]. apply alive_master_is_key. rewrite E. left. reflexivity.
Qed.

Theorem handle_switchover_nocrash cfg env m cs active master sw :
  mem_host master (map fst (all_hosts m)) = true -> view_ok (all_hosts m) cs ->
  nocrash (handle_switchover cfg env m cs active master sw).
Proof.
  intros Hm Hv. unfold handle_switchover.
  skip_np. intros t. case_if; [apply nocrash_of_nopanic; npw|].
  destruct (approve_switchover cfg sw active cs); [apply nocrash_of_nopanic; npw|].
  apply post_bind_np; [unfold start_switchover; npw|]. intros [sw1 e]. destruct e; [exact I|].
  eapply post_bind; [apply perform_switchover_nocrash; assumption|]. intros r _.
  apply nocrash_of_nopanic. case (lock_lost (fst r)); [exact I|].
  cbn [nopanic]. intros g. apply (unless_not_found g _ _ nopanic); [exact I|]. unfold fail_switchover. npw.
Qed.

Theorem leave_maintenance_nocrash cfg env m : nocrash (leave_maintenance cfg env m).
Proof.
  unfold leave_maintenance, tail_envs.
  skip_np. intros [ok m1]. case (negb ok); [exact I|].
  eapply post_bind; [apply cluster_state_from_db_view|]. intros cs Vcs.
  eapply post_bind; [apply post_of_nopanic; [apply np_ensure|apply rets_ensure]|]. intros mr Hmr.
  destruct mr as [master| | |]; try exact I; [|cbn [post]; intros; exact I].
  eapply post_bind; [apply cluster_state_from_dcs_view|]. intros [csd|] Vcsd; [|exact I].
  apply post_bind_np; [apply np_repair_cluster; exact Hmr|]. intros rm. rewrite (proj1 Vcs) in Hmr.
  eapply post_bind; [apply cluster_state_from_db_view|]. intros cs2 Vcs2.
  eapply post_bind; [eapply update_active_nodes_nocrash_views; [exact Vcs2|exact Vcsd|exact Hmr]|]. intros ua _. apply nocrash_of_nopanic. npw.
Qed.

Theorem try_leave_nocrash cfg env m : nocrash (try_leave_maintenance cfg env m).
Proof.
  unfold try_leave_maintenance. skip_np. intros l. destruct l; [|cbn [post]; intros; exact I].
  eapply post_bind; [apply leave_maintenance_nocrash|]. intros r _. apply nocrash_of_nopanic. npw.
Qed.

Theorem handle_maintenance_nocrash cfg env m omt master :
  mem_host master (map fst (all_hosts m)) = true -> nocrash (handle_maintenance cfg env m omt master).
Proof.
  intros Hm. unfold handle_maintenance. destruct omt as [mt|]; [|exact I]. destruct (mt_light mt).
  - destruct (mt_should_leave mt); [eapply post_bind; [apply try_leave_nocrash|intros; exact I]|].
    apply nocrash_of_nopanic. unfold set_maintenance. npw.
  - apply nocrash_of_nopanic. unfold enter_maintenance, set_maintenance. rewrite Hm. cbn [negb]. npw.
Qed.

Lemma post_rets {A} Q (R1 R2 : A -> Prop) (p : prog A) : post Q R1 p -> rets R2 p -> post Q (fun a => R1 a /\ R2 a) p.
Proof.
  induction p as [a0|s|s c k IH|s bs k IH] using prog_ind_k; cbn [post rets]; intros H1 H2; auto.
  destruct H1 as [Hb Hk]. split; [exact Hb|]. intros rs Hp Hres. apply IH; [apply Hk; assumption|apply H2].
Qed.

Lemma rets_handle_maintenance cfg env m omt master :
  rets (fun mh => fst mh = None -> snd mh = m) (handle_maintenance cfg env m omt master).
Proof.
  unfold handle_maintenance. destruct omt as [mt|]; [|cbn [rets]; reflexivity].
  destruct (mt_light mt).
  - destruct (mt_should_leave mt); [apply rets_bind; intros r; cbn [rets fst]; discriminate|].
    destruct (negb (mt_paused mt)); [|cbn [rets]; reflexivity]. apply rets_bind. intros e. cbn [rets fst snd]. reflexivity.
  - destruct (negb (mt_paused mt)); [|cbn [rets fst]; discriminate]. apply rets_bind. intros [x|]; cbn [rets fst]; discriminate.
Qed.

Definition tail_ok (g : gate_res * mgr_mem) : Prop := match fst g with GTail c => ctx_ok (snd g) c | GNext _ => True end.

Lemma rets_failure_detection cfg cs msd active m master light :
  rets (fun fd => all_hosts (snd fd) = all_hosts m) (failure_detection cfg cs msd active m master light).
Proof.
  unfold failure_detection. destruct (negb (ns_ping_ok msd) || ns_fs_ro msd).
  - eapply rets_bind2 with (R' := fun m1 => all_hosts m1 = all_hosts m).
    + destruct (failed_at m master =? 0); [|cbn [rets]; reflexivity]. unfold now_. cbn [bind rets]. intros r.
      apply rets_bind. intros _. apply rets_bind. intros _. cbn [rets]. reflexivity.
    + intros m1 Hm1. destruct light; [cbn [rets snd]; exact Hm1|]. apply rets_bind. intros ap. apply rets_bind. intros _. cbn [rets snd]. exact Hm1.
  - destruct (negb (failed_at m master =? 0)); [|cbn [rets]; reflexivity].
    apply rets_bind. intros _. apply rets_bind. intros _. cbn [rets snd]. reflexivity.
Qed.

Lemma after_requests_post cfg cs csd active m master light :
  view_ok (all_hosts m) cs -> view_ok (all_hosts m) csd -> In master (map fst (all_hosts m)) ->
  post (fun _ => False) tail_ok (after_requests cfg cs csd active m master light).
Proof.
  intros Hcs Hcsd Hm. destruct (view_ok_lookup Hcsd Hm) as [msd Emsd]. destruct (view_ok_lookup Hcs Hm) as [ms Ems].
  apply post_of_nopanic; [exact (after_requests_nopanic cfg cs csd active m master light msd ms Emsd Ems)|].
  unfold after_requests. rewrite Emsd. eapply rets_bind2; [apply rets_failure_detection|]. intros fd Hfd.
  destruct (fst fd); [exact I|]. rewrite Ems. destruct (negb (ns_ping_ok ms)); [exact I|].
  cbn [rets]. unfold tail_ok, ctx_ok. cbn [fst snd tc_cs tc_csd tc_master]. rewrite Hfd. auto.
Qed.

Theorem manager_decide_post cfg env m cs csd :
  view_ok (all_hosts m) cs -> view_ok (all_hosts m) csd -> post (fun _ => False) tail_ok (manager_decide cfg env m cs csd).
Proof.
  intros Hcs Hcsd. unfold manager_decide. cbn [post]. intros rm.
  skip_np. intros fe. case fe; [exact I|]. case_if; [exact I|]. case_if; [exact I|].
  apply post_bind_np; [apply np_get_master|]. intros mr.
  case mr; [intros master|cbn [post]; intros; exact I|exact I..].
  destruct (mem_host master (map fst (all_hosts m))) eqn:Hm; cbn [negb]; [|exact I].
  cbn [post]. intros ra.
  match goal with |- post _ _ (match ?x with Some _ => _ | None => _ end) => case x; [intros active|exact I] end.
  eapply post_bind; [apply post_rets; [apply handle_maintenance_nocrash; exact Hm|apply rets_handle_maintenance]|]. intros mh [_ Hmh].
  destruct (fst mh); [exact I|]. rewrite (Hmh eq_refl). cbn [post]. intros rs.
  assert (AFTER : forall light, post (fun _ => False) tail_ok (after_requests cfg cs csd active m master light)).
  { intros light. apply after_requests_post; [assumption|assumption|]. apply mem_host_In. exact Hm. }
  apply (pending_request_cases rs _ _ _ (post (fun _ => False) tail_ok)); [intros s|intros _; apply AFTER|exact I].
  case (_ && is_failover s); [apply AFTER|]. eapply post_bind; [apply handle_switchover_nocrash; assumption|intros; exact I].
Qed.

Theorem manager_gates_post cfg env m : post (fun _ => False) tail_ok (manager_gates cfg env m).
Proof.
  unfold manager_gates. cbn [bind post]. intros r0. case_if; [exact I|].
  skip_np. intros l. case (negb l); [exact I|].
  skip_np. intros u.
  eapply post_bind; [apply cluster_state_from_db_view|]. intros cs Hcs.
  eapply post_bind; [apply cluster_state_from_dcs_view|]. intros [csd|] Hcsd; [|exact I].
  apply manager_decide_post; assumption.
Qed.

Theorem state_manager_nocrash cfg env m : nocrash (state_manager cfg env m).
Proof.
  unfold state_manager. eapply post_bind; [apply manager_gates_post|]. intros [g m'] Hg. unfold tail_ok in Hg. cbn [fst snd] in *.
  destruct g as [n|c]; [exact I|]. eapply post_bind; [apply manager_tail_nocrash; exact Hg|intros; exact I].
Qed.

Theorem state_manager_never_crashes cfg env m tr o : runs (state_manager cfg env m) tr o -> exists a, o = Done a.
Proof. apply nocrash_sound. apply state_manager_nocrash. Qed.

Theorem state_maintenance_nocrash cfg env m : nocrash (state_maintenance cfg env m).
Proof.
  unfold state_maintenance. cbn [bind post]. intros r.
  skip_np. intros _.
  cbn [post]. intros rm. destruct rm; try exact I.
  - destruct e; try exact I. apply try_leave_nocrash.
  - destruct v; try exact I. destruct (mt_should_leave m0); [apply try_leave_nocrash|exact I].
Qed.

Lemma np_probe cfg local h : nopanic (probe_replica cfg local h).
Proof. unfold probe_replica. npw. Qed.
#[local] Hint Resolve np_probe : np.
Lemma np_check_ha cfg env : nopanic (check_ha_replicas_running cfg env).
Proof. unfold check_ha_replicas_running. npw. Qed.
Lemma np_lost_act local is_master d : nopanic (lost_act local is_master d).
Proof. unfold lost_act, fence_master, fence_replica, stop_replication_on_master. npw. Qed.
#[local] Hint Resolve np_check_ha np_lost_act : np.

Theorem state_lost_nopanic cfg env : nopanic (state_lost cfg env).
Proof.
  (* every answer but [RBool true] leads to the same rest, set aside before the case split *)
  unfold state_lost. set (rest := if lost_static_noop cfg env then _ else _).
  assert (G : nopanic rest) by (unfold rest; npw). clearbody rest. npw.
Qed.

Theorem state_maintenance_never_crashes cfg env m tr o : runs (state_maintenance cfg env m) tr o -> exists a, o = Done a.
Proof. apply nocrash_sound. apply state_maintenance_nocrash. Qed.
Lemma state_manager_has_runs cfg env m :
  runs (state_manager cfg env m) [{| ev_site := 368; ev_call := DcsConnected; ev_resp := RBool false |}] (Done (NxLost, m)).
Proof. cbn. auto. Qed.

Lemma np_wait_check low h : nopanic (wait_check low h).
Proof. unfold wait_check. npw. Qed.
#[local] Hint Resolve np_wait_check : np.
Lemma np_opt_wait fuel low h dl : forall errors, nopanic (opt_wait fuel low h dl errors).
Proof. induction fuel as [|f IH]; intros errors; cbn [opt_wait]; [exact I|]. npw. Qed.
#[local] Hint Resolve np_opt_wait : np.

Lemma syncer_loop_nocrash fuel env :
  incl (map fst (ov_states env)) (ov_cluster env) -> In (ov_master env) (ov_cluster env) -> nocrash (syncer_loop fuel env).
Proof.
  intros Hk Hm. induction fuel as [|f IH]; cbn [syncer_loop post]; [exact I|]. intros more.
  destruct more; try exact I. destruct b; [|exact I].
  eapply post_bind; [apply opt_sync_nocrash; assumption|]. intros _ _. exact IH.
Qed.

Theorem optimization_phase_nocrash fuel cfg env sw active timeout :
  incl (map fst (ov_states env)) (ov_cluster env) -> In (ov_master env) (ov_cluster env) ->
  nocrash (optimization_phase fuel cfg env sw active timeout).
Proof.
  intros Hk Hm. unfold optimization_phase.
  apply post_bind_np; [unfold phase_prefix, choose_replica_to_optimize; npw|]. intros [target|]; [|exact I].
  skip_np. intros t0.
  cbn [post]. split; [|intros; exact I].
  split; [apply nocrash_of_nopanic; unfold wait_branch; npw|]. split; [|exact I]. apply syncer_loop_nocrash; assumption.
Qed.

Theorem optimization_phase_never_crashes fuel cfg env sw active timeout tr o :
  incl (map fst (ov_states env)) (ov_cluster env) -> In (ov_master env) (ov_cluster env) ->
  runs (optimization_phase fuel cfg env sw active timeout) tr o -> exists a, o = Done a.
Proof. intros Hk Hm. apply nocrash_sound. apply optimization_phase_nocrash; assumption. Qed.
