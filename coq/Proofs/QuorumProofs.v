(* Closed-form arithmetic about the GENERATED definitions (C12). *)
From Coq Require Import ZArith Bool List Lia.
From Mysync Require Import Generated.SwitchHelperGen.
Import ListNotations.
Open Scope Z_scope.
(* all the arithmetic needs of Go's truncating n/2 *)
Lemma half_bounds n : 0 <= n -> 2 * (n ÷ 2) <= n < 2 * (n ÷ 2) + 2.
Proof. intros H. pose proof (Z.quot_rem' n 2). pose proof (Z.rem_bound_pos n 2 H). lia. Qed.

Section Arith.
Variable sh : switch_helper.
Variable n : Z.
Hypothesis Hn : 0 <= n.
Hypothesis Hw : 0 <= sh_w sh.
Let r := required_wsc sh n.
Let q := failover_quorum sh n.

Lemma required_nonneg : 0 <= r.
Proof. unfold r, required_wsc. cbv zeta. pose proof (half_bounds n Hn). lia. Qed.

(* never more acknowledgements than replicas in the list (the list holds the
   master, so it has max(n-1,0) replicas) *)
Lemma required_le_replicas : r <= Z.max (n - 1) 0.
Proof. unfold r, required_wsc. cbv zeta. pose proof (half_bounds n Hn). lia. Qed.

Lemma required_zero_iff : r = 0 <-> (n <= 1 \/ sh_w sh = 0).
Proof. unfold r, required_wsc. cbv zeta. pose proof (half_bounds n Hn). lia. Qed.

Lemma quorum_ge_1 : 1 <= q.
Proof. unfold q, failover_quorum. cbv zeta. lia. Qed.

Lemma quorum_plus_required : q + r > Z.max (n - 1) 0.
Proof. unfold q, r, failover_quorum, required_wsc. cbv zeta. pose proof (half_bounds n Hn). lia. Qed.

Lemma quorum_le_list : 1 <= n -> q <= n.
Proof. unfold q, failover_quorum, required_wsc. cbv zeta. pose proof (half_bounds n Hn). lia. Qed.
End Arith.

Section Pigeon.
Context {A : Type}.
Hypothesis eq_dec : forall x y : A, {x = y} + {x <> y}.

Lemma common_or_disjoint (F B : list A) :
  (exists x, In x F /\ In x B) \/ (forall x, In x F -> In x B -> False).
Proof.
  induction F as [|a F IH].
  - right. intros x [].
  - destruct (in_dec eq_dec a B) as [Hin|Hnin].
    + left. exists a. split; [left; reflexivity|exact Hin].
    + destruct IH as [[x [Hx Hy]]|Hd].
      * left. exists x. split; [right; exact Hx|exact Hy].
      * right. intros x [Hx|Hx] Hy; [subst; auto|eauto].
Qed.
Lemma disjoint_NoDup_app (F B : list A) :
  NoDup F -> NoDup B -> (forall x, In x F -> In x B -> False) -> NoDup (F ++ B).
Proof.
  induction F as [|a F IH]; cbn; intros HF HB Hd; [exact HB|].
  inversion HF as [|? ? Hna HF']; subst. constructor.
  - intro Hin. apply in_app_or in Hin. destruct Hin as [Hin|Hin]; [auto|]. eapply Hd; eauto.
  - apply IH; auto. intros x Hx Hy. eapply Hd; eauto.
Qed.

Lemma pigeonhole (R F B : list A) :
  NoDup F -> NoDup B -> incl F R -> incl B R ->
  (length F + length B > length R)%nat ->
  exists x, In x F /\ In x B.
Proof.
  intros HF HB HiF HiB Hlen.
  destruct (common_or_disjoint F B) as [H|H]; [exact H|].
  exfalso.
  assert (Hnd : NoDup (F ++ B)) by (apply disjoint_NoDup_app; auto; intros x Hx Hy; apply (H x); auto).
  assert (Hincl : incl (F ++ B) R) by (apply incl_app; auto).
  pose proof (NoDup_incl_length Hnd Hincl) as Hl. rewrite app_length in Hl. lia.
Qed.
End Pigeon.

Lemma quorum_intersects :
  forall (host : Type) (host_eq_dec : forall x y : host, {x = y} + {x <> y})
         sh (replicas F Ack : list host),
  0 <= sh_w sh ->
  let n := Z.of_nat (S (length replicas)) in
  NoDup F -> NoDup Ack -> incl F replicas -> incl Ack replicas ->
  failover_quorum sh n <= Z.of_nat (length F) ->
  required_wsc sh n <= Z.of_nat (length Ack) ->
  exists h, In h F /\ In h Ack.
Proof.
  intros host dec sh replicas F Ack Hw n HF HA HiF HiA Hq Hr.
  apply (pigeonhole dec replicas F Ack HF HA HiF HiA).
  assert (Hn : 0 <= n) by (unfold n; lia).
  pose proof (quorum_plus_required sh n Hn Hw) as Hs.
  unfold n in *. lia.
Qed.

Lemma check_semisync sh n p : sh_semisync sh = true ->
  (check_quorum sh n p = true <-> failover_quorum sh n <= p).
Proof.
  intros Hs. unfold check_quorum. rewrite Hs. cbv zeta.
  destruct (Z.ltb_spec p (failover_quorum sh n)); split; intros; try lia; try discriminate; reflexivity.
Qed.

Lemma check_async sh n p : sh_semisync sh = false -> 0 <= p ->
  (check_quorum sh n p = true <-> 1 <= p).
Proof.
  intros Hs Hp. unfold check_quorum. rewrite Hs.
  destruct (Z.eqb_spec p 0); split; intros; try lia; try discriminate; reflexivity.
Qed.

