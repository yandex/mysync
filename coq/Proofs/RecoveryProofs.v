From Coq Require Import ZArith NArith Bool List Lia.
From Mysync Require Import Proofs.NodeOpsProofs Proofs.ActiveNodesProofs Proofs.SwitchoverProofs.
From Mysync Require Import Gtid.Interval Gtid.GtidSet Base.Prog Base.ProgFacts Base.Config
  Procs.NodeOps Procs.ActiveNodes Procs.Switchover Procs.Manager Procs.Recovery Proofs.ManagerProofs.
Import ListNotations.
Open Scope Z_scope.

Definition rec_call_ok (me : host) (c : call) : Prop :=
  match c with
  | DcsGet _ | DcsChildren _ | FileExists _ | Now => True
  | Sql _ st => stmt_reads st = true
  | FileWrite f => f = f_resetup
  | DcsDelete p => p = PRecovery me
  | _ => False
  end.

Lemma rc_final me m master st mg stuck clk0 : allcalls (fun _ c => rec_call_ok me c) (rec_final me m master st mg stuck clk0).
Proof. unfold rec_final, rec_stuck. walk ltac:(first [exact I|reflexivity]). Qed.

Lemma rc_with_master me m clk st master : allcalls (fun _ c => rec_call_ok me c) (rec_with_master me m clk st master).
Proof. unfold rec_with_master. walk ltac:(first [exact I|reflexivity|apply rc_final|apply update_hosts_calls; intros; exact I]). Qed.

(* the recovery check only reads, may write the resetup marker file, and may delete ONE coordination key:
   its own host's recovery mark *)
Theorem check_recovery_calls me m clk : allcalls (fun _ c => rec_call_ok me c) (check_recovery me m clk).
Proof. unfold check_recovery. walk ltac:(first [exact I|reflexivity|apply rc_with_master]). Qed.

Definition is_clear (me : host) (e : event) : Prop := ev_call e = DcsDelete (PRecovery me).

Section Clear.
Variables (me : host) (x : event).
Hypothesis Hx : is_clear me x.
Let P := fun (_ : site) (c : call) => c <> DcsDelete (PRecovery me).
Let Hbad : ~ ev_ok P x := fun K => K Hx.

Lemma rec_final_clears m master st mg stuck clk0 : located x (rec_final me m master st mg stuck clk0) (fun tr =>
  exists rs, st = Some rs /\ permanently_lost rs mg = false /\ (stuck = false \/ master = me) /\
    has_ev tr (fun e => ev_call e = Sql me SIsReadOnly /\ exists s, ev_resp e = RFlags true s)).
Proof.
  assert (Q : forall A (p : prog A) Phi, allcalls P p -> located x p Phi) by (intros A p Phi H; apply (located_quiet P x Hbad), quiet_allcalls, H).
  unfold rec_final. destruct st as [rs|]; [|apply Q; unfold rec_stuck; walk ltac:(first [exact I|discriminate])].
  destruct (stuck && negb (N.eqb master me)) eqn:Es; [apply Q; unfold rec_stuck; walk ltac:(first [exact I|discriminate])|].
  destruct (permanently_lost rs mg) eqn:El; [apply Q; walk ltac:(first [exact I|discriminate])|].
  apply (located_prim_bind P x Hbad _ _ _ _ _ (prim_is_read_only _ _)); [discriminate|]. intros e [[r1 r2] oe] Ec Ro.
  destruct oe; [apply located_ret|]. destruct r1; [|apply located_ret]. intros t o _ _.
  exists rs. split; [reflexivity|]. split; [exact El|]. split.
  - apply andb_false_iff in Es. destruct Es as [Es|Es]; [left; exact Es|right; apply negb_false_iff, N.eqb_eq in Es; exact Es].
  - apply has_ev_here. split; [exact Ec|]. exists r2. exact (is_read_only_done _ _ _ _ _ Ro).
Qed.

(* what the check has seen, in the same run, when it clears the mark *)
Definition checked_clean (tr : trace) : Prop :=
  exists rs mg master,
    has_ev tr (fun e => ev_call e = FileExists f_resetup /\ ev_resp e <> RBool true) /\
    has_ev tr (fun e => ev_call e = Sql me SShowReplica /\ ev_resp e = RRepl (Some rs)) /\
    has_ev tr (fun e => ev_call e = DcsGet PMaster /\ ev_resp e = RVal (VHost master)) /\
    has_ev tr (fun e => ev_call e = Sql master SGtidExecuted /\ ev_resp e = RGtid mg) /\
    permanently_lost rs mg = false /\
    has_ev tr (fun e => ev_call e = Sql me SIsReadOnly /\ exists s, ev_resp e = RFlags true s) /\
    (master = me \/ has_ev tr (fun e => ev_call e = Sql me SWaitingAck /\ ev_resp e = RBool false)).

Lemma rec_with_master_clears m clk st master : located x (rec_with_master me m clk st master) (fun tr =>
  exists rs mg, st = Some rs /\ permanently_lost rs mg = false /\
    has_ev tr (fun e => ev_call e = Sql master SGtidExecuted /\ ev_resp e = RGtid mg) /\
    has_ev tr (fun e => ev_call e = Sql me SIsReadOnly /\ exists s, ev_resp e = RFlags true s) /\
    (master = me \/ has_ev tr (fun e => ev_call e = Sql me SWaitingAck /\ ev_resp e = RBool false))).
Proof.
  unfold rec_with_master. apply (located_bind P x Hbad); [apply quiet_allcalls, update_hosts_calls; intros; discriminate|]. intros u t1 _.
  cbn zeta. case (negb (fst u)); [apply located_ret|]. case (negb (mem_host master _)); [apply located_ret|].
  apply (located_prim_bind P x Hbad _ _ _ _ _ (prim_gtid_executed _ _)); [discriminate|]. intros eg g Ecg Rg.
  destruct (snd g) eqn:Eg; [apply located_ret|]. apply gtid_executed_done in Rg; [|exact Eg].
  apply (located_prim_bind P x Hbad _ _ _ _ _ (prim_is_waiting_ack _ _)); [discriminate|]. intros ew w Ecw Rw.
  destruct (snd w) eqn:Ew; [apply located_ret|]. apply is_waiting_ack_done in Rw; [|exact Ew]. cbn zeta.
  apply (located_bind P x Hbad); [apply quiet_allcalls; walk ltac:(first [exact I|discriminate])|]. intros clk0 t2 _.
  intros t o R Hin. destruct (rec_final_clears _ _ _ _ _ _ t o R Hin) as (rs & E1 & E2 & E3 & E4).
  exists rs, (fst g). split; [exact E1|]. split; [exact E2|].
  split; [apply has_ev_appr, has_ev_here; auto|].
  split; [apply has_ev_appr; do 2 apply has_ev_tl; apply has_ev_appr; exact E4|].
  destruct E3 as [E3|E3]; [right|left; exact E3]. apply has_ev_appr, has_ev_tl, has_ev_here.
  split; [exact Ecw|]. rewrite Rw, E3. reflexivity.
Qed.

Lemma check_recovery_clears m clk : located x (check_recovery me m clk) checked_clean.
Proof.
  unfold check_recovery. apply (located_do P x Hbad); [discriminate|]. intros e0 Ec0.
  case (ev_resp e0); intros; try apply located_ret. cbn [bind].
  apply (located_do P x Hbad); [discriminate|]. intros e1 Ec1.
  destruct (match ev_resp e1 with RBool b => b | _ => false end) eqn:Efe; [apply located_ret|].
  assert (FE : ev_resp e1 <> RBool true) by (intros E; rewrite E in Efe; discriminate Efe).
  apply (located_prim_bind P x Hbad _ _ _ _ _ (prim_replica_status _ _)); [discriminate|]. intros e2 st Ec2 Rst.
  destruct (snd st) eqn:Est; [apply located_ret|]. apply replica_status_done in Rst; [|exact Est].
  apply (located_do P x Hbad); [discriminate|]. intros e3 Ec3.
  destruct (ev_resp e3) as [| | | | | | | | | | |v3| | |] eqn:Er3; try apply located_ret.
  destruct v3 as [master| | | | | | | | | | | |]; try apply located_ret.
  intros t o R Hin. destruct (rec_with_master_clears _ _ _ _ t o R Hin) as (rs & mg & E & El & G1 & G2 & G3).
  rewrite E in Rst. exists rs, mg, master.
  split; [apply has_ev_tl, has_ev_here; auto|].
  split; [do 2 apply has_ev_tl; apply has_ev_here; auto|].
  split; [do 3 apply has_ev_tl; apply has_ev_here; auto|].
  split; [do 4 apply has_ev_tl; exact G1|]. split; [exact El|]. split; [do 4 apply has_ev_tl; exact G2|].
  destruct G3 as [G3|G3]; [left; exact G3|right; do 4 apply has_ev_tl; exact G3].
Qed.
End Clear.

(* C11: the mark is cleared only after, in the same check: the resetup marker was absent, the host
   answered with a replica status rs, the recorded master answered with its transactions mg, rs is not in
   error and holds nothing mg lacks, the host reported read_only, and (unless it is itself the recorded
   master) it reported no commits stuck on a semi-sync acknowledgement *)
Theorem mark_cleared_only_when_clean me m clk tr o :
  runs (check_recovery me m clk) tr o -> has_ev tr (is_clear me) -> checked_clean me tr.
Proof. intros R (x & Hin & Hx). exact (check_recovery_clears me x Hx m clk tr o R Hin). Qed.

(* what "clean" means for the transaction sets: not in error and behind-or-equal the master *)
Theorem not_lost_means_contained rs mg : permanently_lost rs mg = false ->
  repl_state_of rs <> ReplError /\ behind_or_equal (rs_executed rs) mg = true.
Proof.
  unfold permanently_lost, slave_ahead. destruct (repl_state_of rs); intros H; try discriminate;
    (split; [discriminate|apply negb_false_iff in H; exact H]).
Qed.

(* exclusion from the published list: a marked host that is not the recorded master is never a member *)
Theorem marked_host_is_not_active cfg env recovery mgtid mem h ns :
  h <> ae_master env -> mem_host h recovery = true ->
  calc_active_host cfg env (Some recovery) mgtid mem (h, ns) = Ret (false, mem).
Proof.
  intros Hm Hr. unfold calc_active_host. destruct (N.eqb_spec h (ae_master env)); [contradiction|].
  destruct (ns_is_cascade ns); [reflexivity|]. rewrite Hr. reflexivity.
Qed.

Lemma np_rec_final me m master st mg stuck clk0 : nopanic (rec_final me m master st mg stuck clk0).
Proof. unfold rec_final, rec_stuck. walk ltac:(exact I). Qed.
Lemma np_rec_with_master me m clk st master : nopanic (rec_with_master me m clk st master).
Proof. unfold rec_with_master. walk ltac:(first [exact I|apply np_rec_final|apply np_update_hosts]). Qed.
(* C20: the repaired recovery check cannot crash, whatever the coordination service and the servers answer *)
Theorem check_recovery_nopanic me m clk : nopanic (check_recovery me m clk).
Proof. unfold check_recovery. walk ltac:(first [exact I|apply np_rec_with_master]). Qed.
