(* Replication optimisation (C19).  Syncer.Sync reads, then acts on a plan: the read phase is analysed on
   its runs (opt_sync_runs), the acting phase on a given plan by one footprint for any property of calls
   (ac_sync_act) and by a monitor of which hosts have the master's durability settings back (wp_sync_act). *)
From Coq Require Import ZArith NArith Bool List Lia.
From Mysync Require Import Base.Prog Base.ProgFacts Base.Hoare Base.Config Procs.NodeOps Procs.ActiveNodes Procs.Switchover Procs.Optimization Proofs.NodeOpsProofs Proofs.SwitchoverProofs.
Import ListNotations.
Open Scope Z_scope.

Lemma prim_opt_get_state s h : prim s (DcsGet (POptNode h)) (opt_get_state s h).
Proof. eexists. split; [reflexivity|]. intros [[]| | | | | | | | | | |[]| | |]; eexists; reflexivity. Qed.
Lemma prim_opt_enable h : prim 50141 (DcsCreate (POptNode h) (VOpt false)) (opt_enable h). Proof. prim_tac. Qed.
#[export] Hint Resolve prim_opt_get_state prim_opt_enable : prim.

Lemma opt_get_state_done s h e a : runs (opt_get_state s h) [e] (Done a) ->
  forall en, ev_resp e = RVal (VOpt en) -> a = (Some (Some en), None).
Proof. intros (_ & _ & R) en E. rewrite E in R. symmetry. exact (proj2 (run_ret _ _ _ R)). Qed.

Lemma opt_delete_host_done s h e : runs (opt_delete_host s h) [e] (Done None) -> ev_resp e = ROk \/ ev_resp e = RErr ENotFound.
Proof.
  intros (_ & _ & R). revert R. case (ev_resp e); try (intros; discriminate (proj2 (run_ret _ _ _ R))); [|left; reflexivity].
  intros []; first [right; reflexivity|intros R; discriminate (proj2 (run_ret _ _ _ R))].
Qed.

Lemma repl_settings_done s h e rs : runs (repl_settings s h) [e] (Done (rs, None)) -> ev_resp e = RZ2 (fst rs) (snd rs).
Proof.
  intros (_ & _ & R). revert R. case (ev_resp e); intros; apply run_ret in R; destruct R as [_ K];
    first [discriminate K|injection K as <-; reflexivity].
Qed.

(* the single host a sync may leave (or put) in the relaxed state *)
Definition kept (p : opt_plan) : option host :=
  match op_optimizing p with
  | h :: _ => Some h
  | [] => match op_disabled p with d :: _ => Some d | [] => None end
  end.
Definition to_restore (p : opt_plan) : list host := op_optimized p ++ op_malf p ++ tl (op_optimizing p).

(* an empty list of hosts makes stopNodes and the deregistration loop return at once, so disableNodes and
   the balancing step are straight lines; the shapes of the plan differ only in the last step, which reads
   and relaxes at most the kept host *)
Lemma disable_nodes_eq env l rs :
  disable_nodes env l rs = (e <- stop_nodes env l rs ;; match e with Some x => Ret (Some x) | None => delete_hosts l end).
Proof. destruct l; reflexivity. Qed.

Definition relax_kept (env : opt_env) (p : opt_plan) : prog oerr :=
  match op_optimizing p with
  | h :: _ => sync_node_options env h
  | [] => match op_disabled p with
          | d :: _ => if mem_host d (ov_cluster env) then optimize_replication d else Panic 30167
          | [] => Ret None
          end
  end.

Lemma balance_eq env mrs p :
  balance env mrs p = (e <- stop_nodes env (tl (op_optimizing p)) mrs ;; match e with Some x => Ret (Some x) | None => relax_kept env p end).
Proof. unfold balance, relax_kept. destruct (op_optimizing p) as [|h [|h2 r]]; reflexivity. Qed.

Lemma relax_kept_ind env p (J : prog oerr -> Prop) :
  J (Ret None) -> (forall s, J (Panic s)) ->
  (forall k, kept p = Some k -> J (sync_node_options env k)) -> (forall k, kept p = Some k -> J (optimize_replication k)) ->
  J (relax_kept env p).
Proof.
  intros J0 Jp Js Jo. unfold relax_kept, kept in *. destruct (op_optimizing p) as [|h r]; [|apply Js; reflexivity].
  destruct (op_disabled p) as [|d ds]; [exact J0|]. destruct (mem_host d (ov_cluster env)); [apply Jo; reflexivity|apply Jp].
Qed.

Section Footprint.
Variable P : site -> call -> Prop.

Lemma ac_set_settings s1 s2 h rs : P s1 (Sql h (SSetFlush (fst rs))) -> P s2 (Sql h (SSetSyncBinlog (snd rs))) ->
  allcalls P (set_repl_settings s1 s2 h rs).
Proof. intros H1 H2. unfold set_repl_settings. walk ltac:(assumption). Qed.

(* OptimizeReplication is SetReplicationSettings(2, 1000) *)
Lemma ac_optimize h : P 11148 (Sql h (SSetFlush 2)) -> P 11152 (Sql h (SSetSyncBinlog 1000)) -> allcalls P (optimize_replication h).
Proof. exact (ac_set_settings 11148 11152 h (2, 1000)). Qed.

Lemma ac_stop_nodes env l rs : (forall h, P 11195 (Sql h (SSetFlush (fst rs)))) -> (forall h, P 11199 (Sql h (SSetSyncBinlog (snd rs)))) ->
  allcalls P (stop_nodes env l rs).
Proof.
  intros H1 H2. induction l as [|h rest IH]; cbn [stop_nodes]; [exact I|].
  destruct (mem_host h (ov_cluster env)); [|exact IH].
  apply allcalls_bind; [apply ac_set_settings; auto|]. intros [e|]; [exact I|exact IH].
Qed.

Lemma ac_delete_hosts l : (forall h, In h l -> P 50125 (DcsDelete (POptNode h))) -> allcalls P (delete_hosts l).
Proof.
  induction l as [|h rest IH]; intros H; cbn [delete_hosts]; [exact I|].
  apply allcalls_bind; [eapply prim_allcalls; [apply prim_opt_delete_host|apply H; left; reflexivity]|].
  intros [x|]; [exact I|]. apply IH. intros y Hy. apply H. right. exact Hy.
Qed.

Lemma ac_sync_node_options env h : P 30214 (Sql h SReplSettings) -> P 11148 (Sql h (SSetFlush 2)) -> P 11152 (Sql h (SSetSyncBinlog 1000)) ->
  allcalls P (sync_node_options env h).
Proof. intros H0 H1 H2. unfold sync_node_options. walk ltac:(first [assumption|apply ac_optimize; assumption]). Qed.

Lemma ac_sync_act env mrs p :
  (forall h, P 11195 (Sql h (SSetFlush (fst mrs)))) -> (forall h, P 11199 (Sql h (SSetSyncBinlog (snd mrs)))) ->
  (forall h, P 50125 (DcsDelete (POptNode h))) ->
  (forall k, kept p = Some k -> P 30214 (Sql k SReplSettings) /\ P 11148 (Sql k (SSetFlush 2)) /\ P 11152 (Sql k (SSetSyncBinlog 1000))) ->
  allcalls P (sync_act env mrs p).
Proof.
  intros H1 H2 H3 H4. unfold sync_act. rewrite disable_nodes_eq, balance_eq.
  apply allcalls_bind.
  { apply allcalls_bind; [apply ac_stop_nodes; assumption|]. intros [x|]; [exact I|]. apply ac_delete_hosts. intros h _. apply H3. }
  intros [x|]; [exact I|]. apply allcalls_bind; [apply ac_stop_nodes; assumption|]. intros [x|]; [exact I|].
  apply relax_kept_ind; [exact I|intros s; exact I| |]; intros k Hk; destruct (H4 k Hk) as (K0 & K1 & K2).
  - apply ac_sync_node_options; assumption.
  - apply ac_optimize; assumption.
Qed.
Lemma ac_read_states env mrs : (forall h, P 30044 (DcsGet (POptNode h))) -> forall hosts p, allcalls P (read_states env mrs hosts p).
Proof. intros H. induction hosts as [|h rest IH]; intros p; cbn [read_states]; walk ltac:(first [apply H|apply IH]). Qed.

Lemma ac_opt_sync env :
  P 30233 (Sql (ov_master env) SReplSettings) -> P 50080 (DcsChildren POptNodes) -> (forall h, P 30044 (DcsGet (POptNode h))) ->
  (forall h v, P 11195 (Sql h (SSetFlush v))) -> (forall h v, P 11199 (Sql h (SSetSyncBinlog v))) -> (forall h, P 50125 (DcsDelete (POptNode h))) ->
  (forall h, P 30214 (Sql h SReplSettings)) -> (forall h, P 11148 (Sql h (SSetFlush 2))) -> (forall h, P 11152 (Sql h (SSetSyncBinlog 1000))) ->
  allcalls P (opt_sync env).
Proof.
  intros Hm Hc Hg H1 H2 H3 H4 H5 H6. unfold opt_sync, master_settings, sync_with.
  walk ltac:(first [assumption|apply ac_read_states; exact Hg|apply ac_sync_act; auto]).
Qed.
End Footprint.

(* the monitor: a host is RESTORED once SET innodb_flush_log_at_trx_commit = fst mrs and then
   SET sync_binlog = snd mrs both returned OK on it, with no other attempt to
   change either setting on that host in between or afterwards *)
Record ost := { o_half : host -> bool; o_rest : host -> bool }.
Definition upd (f : host -> bool) (h : host) (v : bool) : host -> bool := fun x => if N.eqb x h then v else f x.
Definition ost0 : ost := {| o_half := fun _ => false; o_rest := fun _ => false |}.

Definition ostep (mrs : Z * Z) (st : ost) (c : call) (r : resp) : ost :=
  match c with
  | Sql h (SSetFlush v) =>
      {| o_half := upd (o_half st) h (match r with ROk => v =? fst mrs | _ => false end); o_rest := upd (o_rest st) h false |}
  | Sql h (SSetSyncBinlog v) =>
      {| o_half := o_half st; o_rest := upd (o_rest st) h (match r with ROk => (v =? snd mrs) && o_half st h | _ => false end) |}
  | _ => st
  end.

(* deregistering a cluster host is allowed only when it is RESTORED *)
Definition ookc (cluster : list host) (st : ost) (c : call) : Prop :=
  match c with
  | DcsDelete (POptNode h) => o_rest st h = true \/ mem_host h cluster = false
  | _ => True
  end.

Lemma upd_same f h v : upd f h v h = v.
Proof. unfold upd. rewrite N.eqb_refl. reflexivity. Qed.
Lemma upd_other f h v x : x <> h -> upd f h v x = f x.
Proof. unfold upd. intros H. destruct (N.eqb_spec x h); [contradiction|reflexivity]. Qed.

Lemma ostep_neutral mrs c : (forall h v, c <> Sql h (SSetFlush v)) -> (forall h v, c <> Sql h (SSetSyncBinlog v)) -> neutral ost (ostep mrs) c.
Proof.
  intros H1 H2 st r. destruct c as [h s| | | | | | | | | | | | | | |]; try reflexivity.
  destruct s; try reflexivity; [destruct (H1 _ _ eq_refl)|destruct (H2 _ _ eq_refl)].
Qed.
Lemma ostep_other mrs st h s r x : x <> h -> o_rest (ostep mrs st (Sql h s) r) x = o_rest st x.
Proof. intros H. destruct s; try reflexivity; apply upd_other; exact H. Qed.

Lemma wp_set_settings cluster mrs s1 s2 h rs st :
  wp ost (ostep mrs) (ookc cluster) st (set_repl_settings s1 s2 h rs)
     (fun st' e => (e = None -> rs = mrs -> o_rest st' h = true) /\ (forall x, x <> h -> o_rest st' x = o_rest st x)).
Proof.
  unfold set_repl_settings. apply wp_bind, wp_exec; [exact I| |].
  - apply wp_exec; [exact I| |].
    + split; [|intros x Hx; rewrite !ostep_other by exact Hx; reflexivity].
      intros _ <-. cbn. rewrite !upd_same, !Z.eqb_refl. reflexivity.
    + intros r x. split; [discriminate|]. intros y Hy. rewrite !ostep_other by exact Hy. reflexivity.
  - intros r x. split; [discriminate|]. intros y Hy. apply ostep_other. exact Hy.
Qed.

Definition restored (good : host -> bool) (l : list host) (ok : Prop) (st st' : ost) : Prop :=
  (ok -> forall h, In h l -> good h = true -> o_rest st' h = true) /\ (forall x, ~ In x l -> o_rest st' x = o_rest st x).

Lemma restored_nil good ok st : restored good [] ok st st.
Proof. split; [intros _ h []|reflexivity]. Qed.
Lemma restored_one good h (ok : Prop) st st' :
  (ok -> o_rest st' h = true) -> (forall x, x <> h -> o_rest st' x = o_rest st x) -> restored good [h] ok st st'.
Proof.
  intros H1 H2. split; [intros Hok y [<-|[]] _; exact (H1 Hok)|].
  intros x Hx. apply H2. intros ->. apply Hx. left. reflexivity.
Qed.
Lemma restored_bad good h ok st : good h = false -> restored good [h] ok st st.
Proof. intros Hg. split; [intros _ y [<-|[]] Hy; congruence|reflexivity]. Qed.
Lemma restored_impl good l (ok ok' : Prop) st st' : (ok' -> ok) -> restored good l ok st st' -> restored good l ok' st st'.
Proof. intros Hi [H1 H2]. split; [intros Hok; exact (H1 (Hi Hok))|exact H2]. Qed.
(* a host worked on twice counts by the second time *)
Lemma restored_app good l1 l2 ok st st1 st2 :
  restored good l1 ok st st1 -> restored good l2 ok st1 st2 -> restored good (l1 ++ l2) ok st st2.
Proof.
  intros [H1 H2] [K1 K2]. split.
  - intros Hok h Hh Hg. destruct (in_dec N.eq_dec h l2) as [Hi|Hn]; [exact (K1 Hok h Hi Hg)|].
    rewrite K2 by exact Hn. apply in_app_or in Hh. destruct Hh as [Hh|Hh]; [exact (H1 Hok h Hh Hg)|contradiction].
  - intros x Hx. rewrite K2, H2; [reflexivity| |]; intros Hi; apply Hx, in_or_app; auto.
Qed.

Section Mon.
Variable env : opt_env.
Variable mrs : Z * Z.
Notation cluster := (ov_cluster env).
Notation WP := (wp ost (ostep mrs) (ookc cluster)).
Notation in_cluster := (fun h => mem_host h cluster).

Lemma wp_exec_other {A} st s h stm (k : oerr -> prog A) Q :
  (forall v, stm <> SSetFlush v) -> (forall v, stm <> SSetSyncBinlog v) ->
  (forall e, WP st (k e) Q) -> WP st (bind (exec_ s h stm) k) Q.
Proof.
  intros H1 H2 Hk. apply wp_bind_neutral; [|exact Hk]. eapply prim_allcalls; [apply prim_exec|].
  split; [exact I|]. apply ostep_neutral; intros h' v E; injection E as _ E; [exact (H1 v E)|exact (H2 v E)].
Qed.

Lemma wp_optimize h st :
  WP st (optimize_replication h) (fun st' _ => forall x, x <> h -> o_rest st' x = o_rest st x).
Proof. eapply wp_conseq; [|exact (wp_set_settings cluster mrs 11148 11152 h (2, 1000) st)]. intros st' e [_ H]. exact H. Qed.

Lemma wp_stop_nodes : forall l st,
  WP st (stop_nodes env l mrs) (fun st' e => restored in_cluster l (e = None) st st').
Proof.
  induction l as [|h rest IH]; intros st; cbn [stop_nodes]; [apply restored_nil|].
  destruct (mem_host h cluster) eqn:Em.
  - apply wp_bind. eapply wp_conseq; [|apply wp_set_settings]. cbn beta. intros st1 e [H1 H2]. destruct e as [x|].
    + split; [discriminate|]. intros y Hy. apply H2. intros ->. apply Hy. left. reflexivity.
    + eapply wp_conseq; [|apply IH]. cbn beta. intros st2 e K.
      apply (restored_app _ [h] rest _ st st1 st2); [|exact K]. apply restored_one; [intros _; apply H1; reflexivity|exact H2].
  - eapply wp_conseq; [|apply IH]. cbn beta. intros st2 e K.
    apply (restored_app _ [h] rest _ st st st2); [apply restored_bad; exact Em|exact K].
Qed.

Lemma wp_delete_hosts l st (Q : ost -> oerr -> Prop) :
  (forall h, In h l -> o_rest st h = true \/ mem_host h cluster = false) -> (forall e, Q st e) ->
  WP st (delete_hosts l) Q.
Proof.
  intros Hl HQ. apply wp_neutral; [|exact HQ]. apply ac_delete_hosts. intros h Hh.
  split; [exact (Hl h Hh)|intros st' r; reflexivity].
Qed.

Lemma wp_disable_nodes l st :
  WP st (disable_nodes env l mrs) (fun st' e => restored in_cluster l (e = None) st st').
Proof.
  rewrite disable_nodes_eq. apply wp_bind. eapply wp_conseq; [|apply wp_stop_nodes]. cbn beta.
  intros st1 e H. destruct e as [x|]; [exact H|]. apply wp_delete_hosts.
  - intros h Hh. destruct (mem_host h cluster) eqn:Em; [left; exact (proj1 H eq_refl h Hh Em)|right; reflexivity].
  - intros e. exact (restored_impl _ _ _ _ _ _ (fun _ => eq_refl) H).
Qed.

Lemma wp_sync_node_options h st :
  WP st (sync_node_options env h) (fun st' _ => forall x, x <> h -> o_rest st' x = o_rest st x).
Proof.
  unfold sync_node_options. destruct (negb (mem_host h cluster)); [exact I|].
  apply wp_bind_neutral; [eapply prim_allcalls; [apply prim_repl_settings|split; [exact I|intros st' r; reflexivity]]|].
  intros r. destruct (snd r); [intros x _; reflexivity|]. destruct (can_be_optimized _); [apply wp_optimize|intros x _; reflexivity].
Qed.

Lemma wp_relax_kept p st :
  WP st (relax_kept env p) (fun st' _ => forall x, Some x <> kept p -> o_rest st' x = o_rest st x).
Proof.
  apply relax_kept_ind; [intros x _; reflexivity|intros s; exact I| |]; intros k Hk;
    (eapply wp_conseq; [|first [apply wp_sync_node_options|apply wp_optimize]]);
    intros st' e H x Hx; apply H; congruence.
Qed.

(* THE SYNC, plan given: every deregistration is of a restored (or foreign) host, and
   after a successful sync every cluster host that was to be switched off - converged,
   without lag, master, or a surplus optimising host - is restored, except the one kept host *)
Theorem wp_sync_act p st :
  WP st (sync_act env mrs p)
     (fun st' e => e = None -> forall h, In h (to_restore p) -> Some h <> kept p -> mem_host h cluster = true -> o_rest st' h = true).
Proof.
  unfold sync_act. rewrite balance_eq. apply wp_bind. eapply wp_conseq; [|apply wp_disable_nodes]. cbn beta.
  intros st1 e H. destruct e as [x|]; [cbn [wp]; discriminate|].
  apply wp_bind. eapply wp_conseq; [|apply wp_stop_nodes]. cbn beta.
  intros st2 e K. destruct e as [x|]; [cbn [wp]; discriminate|].
  eapply wp_conseq; [|apply wp_relax_kept]. cbn beta. intros st3 e F _ h Hh Hk Hc. rewrite F by exact Hk.
  unfold to_restore in Hh. rewrite app_assoc in Hh. exact (proj1 (restored_app _ _ _ _ _ _ _ H K) eq_refl h Hh Hc).
Qed.
End Mon.

(* the two SET statements of OptimizeReplication are sent to the kept host only *)
Definition opt_site (s : site) : Prop := s = 11148 \/ s = 11152.
Definition relax_ok (p : opt_plan) (s : site) (c : call) : Prop :=
  opt_site s -> exists h st, c = Sql h st /\ kept p = Some h.

Lemma relax_ok_other p s c : s <> 11148 -> s <> 11152 -> relax_ok p s c.
Proof. intros H1 H2 [E|E]; contradiction. Qed.

Theorem sync_act_relaxes_only_kept env mrs p : allcalls (relax_ok p) (sync_act env mrs p).
Proof.
  apply ac_sync_act; try (intros h; apply relax_ok_other; discriminate).
  intros k Hk. split; [apply relax_ok_other; discriminate|]. split; intros _; exists k; eexists; split; first [reflexivity|exact Hk].
Qed.

(* settings other than the master's are given to k only *)
Definition tamper_ok (mrs : Z * Z) (k : option host) (c : call) : Prop :=
  match c with
  | Sql h (SSetFlush v) => v = fst mrs \/ k = Some h
  | Sql h (SSetSyncBinlog v) => v = snd mrs \/ k = Some h
  | _ => True
  end.
Definition no_get (c : call) : Prop := match c with DcsGet _ => False | _ => True end.

Theorem sync_act_tampers_only_kept env mrs p : allcalls (fun _ c => tamper_ok mrs (kept p) c) (sync_act env mrs p).
Proof.
  apply ac_sync_act; try (intros h; first [exact I|left; reflexivity]).
  intros k Hk. split; [exact I|]. split; right; exact Hk.
Qed.
Lemma sync_act_no_get env mrs p : allcalls (fun _ c => no_get c) (sync_act env mrs p).
Proof. apply ac_sync_act; intros; repeat split. Qed.

Lemma classify_nolag env mrs en ns : opt_lag ns = None -> classify env mrs en (Some ns) = OcMalf.
Proof. intros H. unfold classify. rewrite H. reflexivity. Qed.
Lemma classify_unknown_host env mrs en : classify env mrs en None = OcMalf.
Proof. reflexivity. Qed.
Lemma classify_master env mrs en ns : ns_is_master ns = true -> classify env mrs en (Some ns) = OcMalf.
Proof. intros H. unfold classify. destruct (opt_lag ns); [rewrite H|]; reflexivity. Qed.
Lemma classify_converged env mrs en ns lag : ns_is_master ns = false -> opt_lag ns = Some lag ->
  (lag < ov_low env \/ (en = false /\ lag < ov_high env)) -> ov_low env <= ov_high env ->
  classify env mrs en (Some ns) = OcOptimized \/ classify env mrs en (Some ns) = OcMalf.
Proof.
  intros Hm Hl Hc Hlh. unfold classify. rewrite Hl, Hm.
  destruct (ns_repl_settings ns) as [rs|]; [left|right; reflexivity].
  destruct Hc as [Hc|[-> Hc]].
  - assert (lag <? ov_low env = true) as -> by (apply Z.ltb_lt; exact Hc).
    assert (lag <? ov_high env = true) as -> by (apply Z.ltb_lt; lia). destruct en; reflexivity.
  - assert (lag <? ov_high env = true) as -> by (apply Z.ltb_lt; exact Hc). reflexivity.
Qed.
Lemma classify_disabled env mrs en ons : classify env mrs en ons = OcDisabled ->
  en = false /\ exists ns rs, ons = Some ns /\ ns_repl_settings ns = Some rs /\ rs_eqb rs mrs = true.
Proof.
  unfold classify. destruct ons as [ns|]; [|discriminate]. destruct (opt_lag ns); [|discriminate].
  destruct (ns_is_master ns); [discriminate|]. destruct (ns_repl_settings ns) as [rs|] eqn:Ers; [|discriminate].
  destruct (_ || _); [discriminate|]. destruct en; [discriminate|]. destruct (rs_eqb rs mrs) eqn:E; [|discriminate].
  intros _. split; [reflexivity|]. exists ns, rs. auto.
Qed.

Definition readcall (c : call) : Prop :=
  match c with DcsGet _ | DcsChildren _ | Sql _ SReplSettings => True | _ => False end.
Definition observed (tr : trace) (h : host) (en : bool) : Prop :=
  exists e, In e tr /\ ev_call e = DcsGet (POptNode h) /\ ev_resp e = RVal (VOpt en).
Definition class_list (p : opt_plan) (c : opt_class) : list host :=
  match c with OcMalf => op_malf p | OcOptimized => op_optimized p | OcOptimizing => op_optimizing p | OcDisabled => op_disabled p end.
Definition plan_incl (p q : opt_plan) : Prop := forall c, incl (class_list p c) (class_list q c).
Definition plan_sound (env : opt_env) (mrs : Z * Z) (tr : trace) (p : opt_plan) : Prop :=
  forall h en, observed tr h en -> In h (class_list p (classify env mrs en (assoc h (ov_states env)))).

Lemma plan_add_incl p h c : plan_incl p (plan_add p h c).
Proof. intros c' x H. destruct c, c'; cbn in *; auto; apply in_or_app; left; exact H. Qed.
Lemma plan_add_in p h c : In h (class_list (plan_add p h c) c).
Proof. destruct c; cbn; apply in_or_app; right; left; reflexivity. Qed.

Lemma observed_cons e tr h en :
  observed (e :: tr) h en -> (ev_call e = DcsGet (POptNode h) /\ ev_resp e = RVal (VOpt en)) \/ observed tr h en.
Proof. intros (e0 & [<-|Hin] & C); [left; exact C|right; exists e0; auto]. Qed.
Lemma observed_app_no_get t1 t2 h en : Forall (fun e => no_get (ev_call e)) t2 -> observed (t1 ++ t2) h en -> observed t1 h en.
Proof.
  intros F (e & Hin & C & R). apply in_app_or in Hin. destruct Hin as [Hin|Hin]; [exists e; auto|].
  rewrite Forall_forall in F. specialize (F e Hin). rewrite C in F. destruct F.
Qed.

Lemma read_states_plan env mrs : forall hosts p0,
  returns (read_states env mrs hosts p0) (fun tr r => forall p, r = RdOk p -> plan_incl p0 p /\ plan_sound env mrs tr p).
Proof.
  induction hosts as [|h rest IH]; intros p0; cbn [read_states].
  - apply returns_ret. intros p [= <-]. split; [intros c; apply incl_refl|intros x en (e & [] & _)].
  - apply (holds_prim_bind _ _ _ _ _ (prim_opt_get_state _ _)). intros e a Ec R1. cbn beta.
    pose proof (opt_get_state_done _ _ _ _ R1) as D. clear R1.
    (* the entry of h is filed when it was read, and the hosts read later are filed by induction *)
    assert (G : forall p1, plan_incl p0 p1 -> (forall en, ev_resp e = RVal (VOpt en) -> In h (class_list p1 (classify env mrs en (assoc h (ov_states env))))) ->
                returns (read_states env mrs rest p1) (fun t r => forall p, r = RdOk p -> plan_incl p0 p /\ plan_sound env mrs (e :: t) p)).
    { intros p1 I1 Hh. eapply returns_conseq; [|apply IH]. cbn beta. intros t r K p E. destruct (K p E) as [K1 K2].
      split; [intros c x Hx; exact (K1 c x (I1 c x Hx))|]. intros h0 en Ho. apply observed_cons in Ho. destruct Ho as [[C0 R0]|Ho]; [|exact (K2 h0 en Ho)].
      rewrite Ec in C0. injection C0 as <-. exact (K1 _ h (Hh en R0)). }
    destruct a as [[[en|]|] [x|]]; try (apply returns_ret; intros p [=]).
    + apply G; [apply plan_add_incl|]. intros en' E. injection (D en' E) as <-. apply plan_add_in.
    + apply G; [intros c; apply incl_refl|]. intros en' E. discriminate (D en' E).
    + apply G; [intros c; apply incl_refl|]. intros en' E. discriminate (D en' E).
Qed.

(* where the sync learns the master's settings from: this iteration's health record, else the master itself *)
Definition master_seen (env : opt_env) (tr : trace) (mrs : Z * Z) : Prop :=
  (exists ns, assoc (ov_master env) (ov_states env) = Some ns /\ ns_repl_settings ns = Some mrs) \/
  (exists e tr', tr = e :: tr' /\ ev_call e = Sql (ov_master env) SReplSettings /\ ev_resp e = RZ2 (fst mrs) (snd mrs)).

(* a run of Sync only reads and fails, or reads, draws up a plan that files every host it read under
   its class, and acts on that plan *)
Definition fails (tr : trace) (o : outcome oerr) : Prop := Forall (fun e => readcall (ev_call e)) tr /\ o <> Done None.
Definition acts (env : opt_env) (mrs : Z * Z) (tr : trace) (o : outcome oerr) : Prop :=
  exists p tr1 tr2, tr = tr1 ++ tr2 /\ Forall (fun e => readcall (ev_call e)) tr1 /\ plan_sound env mrs tr p /\ runs (sync_act env mrs p) tr2 o.

Lemma read_first env mrs e tr o : readcall (ev_call e) -> no_get (ev_call e) ->
  fails tr o \/ acts env mrs tr o -> fails (e :: tr) o \/ acts env mrs (e :: tr) o.
Proof.
  intros RC NG [[F N]|(p & t1 & t2 & -> & F & P & R)]; [left; split; [constructor; assumption|exact N]|].
  right. exists p, (e :: t1), t2. split; [reflexivity|]. split; [constructor; assumption|]. split; [|exact R].
  intros h en Ho. apply P. apply observed_cons in Ho. destruct Ho as [[C _]|Ho]; [rewrite C in NG; destruct NG|exact Ho].
Qed.

Lemma sync_with_runs env mrs tr o : runs (sync_with env mrs) tr o -> fails tr o \/ acts env mrs tr o.
Proof.
  unfold sync_with. revert tr o. apply (holds_prim_bind _ _ _ _ _ (prim_dcs_children _ _)). intros e hs Ec _ tr' o R1.
  apply read_first; [rewrite Ec; exact I|rewrite Ec; exact I|].
  destruct (snd hs) as [x|]; [left; destruct R1 as [-> ->]; split; [constructor|discriminate]|].
  destruct (runs_bind_clean (fun _ c => readcall c) _ _ _ _ (ac_read_states _ env mrs (fun _ => I) _ _) R1)
    as [(t1 & t2 & r & -> & F & Rr & R2)|(F & s & ->)]; [|left; split; [exact F|discriminate]].
  destruct r as [p|x]; [|left; destruct R2 as [-> ->]; rewrite app_nil_r; split; [exact F|discriminate]].
  right. exists p, t1, t2. split; [reflexivity|]. split; [exact F|]. split; [|exact R2].
  (* the calls of the acting part are not reads of a host's entry *)
  intros h en Ho. apply (proj2 (returns_runs _ _ _ _ (read_states_plan env mrs _ _) Rr p eq_refl)).
  exact (observed_app_no_get _ _ _ _ (allcalls_sound _ _ (sync_act_no_get env mrs p) _ _ R2) Ho).
Qed.

Theorem opt_sync_runs env tr o : runs (opt_sync env) tr o -> fails tr o \/ exists mrs, master_seen env tr mrs /\ acts env mrs tr o.
Proof.
  unfold opt_sync, master_settings.
  destruct (match assoc (ov_master env) (ov_states env) with Some ns => ns_repl_settings ns | None => None end) as [rs|] eqn:Ev.
  - intros H. destruct (sync_with_runs _ _ _ _ H) as [L|A]; [left; exact L|right]. exists rs. split; [|exact A].
    left. destruct (assoc (ov_master env) (ov_states env)) as [ns|]; [|discriminate]. exists ns. auto.
  - destruct (mem_host (ov_master env) (ov_cluster env)); [|intros [-> ->]; left; split; [constructor|discriminate]].
    revert tr o. apply (holds_prim_bind _ _ _ _ _ (prim_repl_settings _ _)). intros e m Ec Rm tr' o R.
    assert (RC : readcall (ev_call e) /\ no_get (ev_call e)) by (rewrite Ec; split; exact I).
    destruct m as [mrs [x|]]; cbn [snd fst] in R; [left; destruct R as [-> ->]; split; [repeat constructor; apply RC|discriminate]|].
    destruct (read_first env mrs e tr' o (proj1 RC) (proj2 RC) (sync_with_runs _ _ _ _ R)) as [L|A]; [left; exact L|right].
    exists mrs. split; [|exact A]. right. exists e, tr'. split; [reflexivity|]. split; [exact Ec|exact (repl_settings_done _ _ _ _ Rm)].
Qed.

Lemma switched_off env mrs tr p h en : plan_sound env mrs tr p -> observed tr h en ->
  (classify env mrs en (assoc h (ov_states env)) = OcMalf \/ classify env mrs en (assoc h (ov_states env)) = OcOptimized) ->
  In h (op_optimized p ++ op_malf p).
Proof. intros P Ho Hc. specialize (P h en Ho). apply in_or_app. destruct Hc as [Hc|Hc]; rewrite Hc in P; [right|left]; exact P. Qed.

Lemma readcall_neutral mrs cluster st c : readcall c -> ookc cluster st c /\ neutral ost (ostep mrs) c.
Proof. intros H. split; [destruct c; try exact I; destruct H|]. apply ostep_neutral; intros h v ->; exact H. Qed.

(* reads in front of a run do not move the monitor: the run is judged from the initial state *)
Lemma wp_after_reads {A} mrs cluster (p : prog A) Q t1 t2 o :
  Forall (fun e => readcall (ev_call e)) t1 -> wp ost (ostep mrs) (ookc cluster) ost0 p Q -> runs p t2 o ->
  trace_ok ost (ostep mrs) (ookc cluster) ost0 (t1 ++ t2) /\
  match o with Done a => Q (fold_steps ost (ostep mrs) ost0 (t1 ++ t2)) a | Panicked _ => True end.
Proof.
  intros F W R. pose proof (Forall_impl _ (fun e => readcall_neutral mrs cluster ost0 (ev_call e)) F) as C. rewrite fold_steps_app, (fold_steps_neutral _ _ _ _ _ C).
  destruct (wp_sound _ _ _ _ _ _ W _ _ R) as [T K]. split; [exact (trace_ok_neutral_app _ _ _ _ _ _ C T)|exact K].
Qed.

Lemma readcall_tamper mrs k c : readcall c -> tamper_ok mrs k c.
Proof. destruct c; try (intros; exact I). destruct s; try (intros; exact I); intros []. Qed.

(* in every run of Sync a registered cluster host is deregistered only when RESTORED *)
Theorem sync_drops_only_restored env tr o : runs (opt_sync env) tr o ->
  exists mrs, (Forall (fun e => readcall (ev_call e)) tr \/ master_seen env tr mrs) /\
              trace_ok ost (ostep mrs) (ookc (ov_cluster env)) ost0 tr.
Proof.
  intros H. destruct (opt_sync_runs _ _ _ H) as [[F _]|(mrs & M & p & t1 & t2 & -> & F & _ & R)].
  - exists (0, 0). split; [left; exact F|]. rewrite <- (app_nil_r tr). apply trace_ok_neutral_app; [exact (Forall_impl _ (fun e => readcall_neutral _ _ _ _) F)|exact I].
  - exists mrs. split; [right; exact M|]. exact (proj1 (wp_after_reads _ _ _ _ _ _ _ F (wp_sync_act env mrs p ost0) R)).
Qed.

(* after a successful Sync every registered cluster host that the manager's view shows as master,
   without a known lag, or converged is RESTORED - with at most one host k exempt *)
Theorem sync_success_restores env tr : runs (opt_sync env) tr (Done None) ->
  exists mrs k, master_seen env tr mrs /\
    forall h en, observed tr h en ->
      (classify env mrs en (assoc h (ov_states env)) = OcMalf \/ classify env mrs en (assoc h (ov_states env)) = OcOptimized) ->
      mem_host h (ov_cluster env) = true -> Some h <> k ->
      o_rest (fold_steps ost (ostep mrs) ost0 tr) h = true.
Proof.
  intros H. destruct (opt_sync_runs _ _ _ H) as [[_ F]|(mrs & M & p & t1 & t2 & -> & F & P & R)]; [contradiction|].
  exists mrs, (kept p). split; [exact M|]. intros h en Ho Hc Hm Hk.
  apply (proj2 (wp_after_reads _ _ _ _ _ _ _ F (wp_sync_act env mrs p ost0) R) eq_refl); [|exact Hk|exact Hm].
  unfold to_restore. rewrite app_assoc. apply in_or_app. left. exact (switched_off _ _ _ _ _ _ P Ho Hc).
Qed.

(* in every run of Sync settings other than the master's are given to at most one host *)
Theorem sync_relaxes_at_most_one env tr o : runs (opt_sync env) tr o ->
  exists mrs k, (Forall (fun e => readcall (ev_call e)) tr \/ master_seen env tr mrs) /\
    Forall (fun e => tamper_ok mrs k (ev_call e)) tr.
Proof.
  intros H. destruct (opt_sync_runs _ _ _ H) as [[F _]|(mrs & M & p & t1 & t2 & -> & F & _ & R)].
  - exists (0, 0), None. split; [left; exact F|]. exact (Forall_impl _ (fun e => readcall_tamper _ _ _) F).
  - exists mrs, (kept p). split; [right; exact M|]. apply Forall_app. split; [exact (Forall_impl _ (fun e => readcall_tamper _ _ _) F)|].
    exact (allcalls_sound _ _ (sync_act_tampers_only_kept env mrs p) _ _ R).
Qed.

Definition deregistered (tr : trace) (h : host) : Prop :=
  exists e, In e tr /\ ev_call e = DcsDelete (POptNode h) /\ (ev_resp e = ROk \/ ev_resp e = RErr ENotFound).
Lemma deregistered_app t1 t2 h : deregistered t1 h \/ deregistered t2 h -> deregistered (t1 ++ t2) h.
Proof. intros [(e & Hin & C)|(e & Hin & C)]; exists e; (split; [apply in_or_app; auto|exact C]). Qed.

Lemma delete_hosts_done : forall l, returns (delete_hosts l) (fun tr e => e = None -> forall h, In h l -> deregistered tr h).
Proof.
  induction l as [|h0 rest IH]; cbn [delete_hosts]; [apply returns_ret; intros _ h []|].
  apply (holds_prim_bind _ _ _ _ _ (prim_opt_delete_host _ _)). intros e a Ec R1. cbn beta.
  destruct a as [x|]; [apply returns_ret; discriminate|]. eapply returns_conseq; [|exact IH]. cbn beta.
  intros t e' K He h Hh. apply (deregistered_app [e] t). destruct Hh as [<-|Hh]; [left|right; exact (K He h Hh)].
  exists e. split; [left; reflexivity|]. split; [exact Ec|exact (opt_delete_host_done _ _ _ R1)].
Qed.

Lemma sync_act_deregisters env mrs p :
  returns (sync_act env mrs p) (fun tr e => e = None -> forall h, In h (op_optimized p ++ op_malf p) -> deregistered tr h).
Proof.
  unfold sync_act. rewrite disable_nodes_eq. apply returns_bind. intros [x|] t1 R1; [apply returns_ret; discriminate|].
  (* whatever the balancing step does afterwards *)
  apply returns_any. intros t e _ h Hh. apply deregistered_app. left.
  destruct (runs_bind_done _ _ _ _ R1) as (t0 & t2 & [x|] & _ & R2 & ->); [destruct R2 as [_ R2]; discriminate R2|].
  apply deregistered_app. right. exact (returns_runs _ _ _ _ (delete_hosts_done _) R2 eq_refl h Hh).
Qed.

(* ... and deregistered *)
Theorem sync_success_deregisters env tr : runs (opt_sync env) tr (Done None) ->
  exists mrs, master_seen env tr mrs /\
    forall h en, observed tr h en ->
      (classify env mrs en (assoc h (ov_states env)) = OcMalf \/ classify env mrs en (assoc h (ov_states env)) = OcOptimized) ->
      exists e, In e tr /\ ev_call e = DcsDelete (POptNode h) /\ (ev_resp e = ROk \/ ev_resp e = RErr ENotFound).
Proof.
  intros H. destruct (opt_sync_runs _ _ _ H) as [[_ F]|(mrs & M & p & t1 & t2 & -> & F & P & R)]; [contradiction|].
  exists mrs. split; [exact M|]. intros h en Ho Hc. apply (deregistered_app t1 t2). right.
  exact (returns_runs _ _ _ _ (sync_act_deregisters env mrs p) R eq_refl h (switched_off _ _ _ _ _ _ P Ho Hc)).
Qed.

(* the hosts deregistered so far, as a monitor state *)
Definition dstep (st : list host) (c : call) (r : resp) : list host :=
  match c with
  | DcsDelete (POptNode h) => match r with ROk | RErr ENotFound => h :: st | _ => st end
  | _ => st
  end.
Definition dokc (st : list host) (c : call) : Prop := True.

Lemma sql_dneutral h s : dokc [] (Sql h s) /\ neutral (list host) dstep (Sql h s).
Proof. split; [exact I|intros st r; reflexivity]. Qed.

Lemma wp_opt_disable cluster rs h st :
  wp ost (ostep rs) (ookc cluster) st (opt_disable h rs)
     (fun st' e => (e = None -> o_rest st' h = true) /\ (forall x, x <> h -> o_rest st' x = o_rest st x)).
Proof.
  unfold opt_disable. apply wp_bind. eapply wp_conseq; [|apply wp_set_settings]. cbn beta.
  intros st1 e [H1 H2]. destruct e as [x|]; [split; [discriminate|exact H2]|].
  apply wp_neutral; [|intros e; split; [intros _; apply H1; reflexivity|exact H2]].
  eapply prim_allcalls; [apply prim_opt_delete_host|]. split; [left; apply H1; reflexivity|intros st' r; reflexivity].
Qed.

Definition no_err (errs : list oerr) : Prop := existsb (fun e : oerr => match e with Some _ => true | None => false end) errs = false.

Lemma if_none {X} (b : bool) (x : X) : (if b then Some x else None) = None -> b = false.
Proof. destruct b; [discriminate|reflexivity]. Qed.
Lemma no_err_cons e errs : no_err (e :: errs) -> e = None /\ no_err errs.
Proof. unfold no_err. cbn [existsb]. intros H. apply orb_false_iff in H. destruct e; [destruct H as [H _]; discriminate H|exact (conj eq_refl (proj2 H))]. Qed.

Lemma wp_disable_loop cluster rs nodes : forall names st,
  wp ost (ostep rs) (ookc cluster) st (forM names (fun h => if mem_host h nodes then opt_disable h rs else Ret None))
     (fun st' errs => restored (fun h => mem_host h nodes) names (no_err errs) st st').
Proof.
  induction names as [|h rest IH]; intros st; cbn [forM]; [apply restored_nil|].
  apply wp_bind. apply wp_conseq with (Q := fun st1 e => restored (fun h => mem_host h nodes) [h] (e = None) st st1).
  - intros st1 e H. apply wp_bind. eapply wp_conseq; [|apply IH]. cbn beta. intros st2 errs K. cbn [wp].
    apply (restored_app _ [h] rest _ st st1 st2); [eapply restored_impl; [|exact H]|eapply restored_impl; [|exact K]]; apply no_err_cons.
  - destruct (mem_host h nodes) eqn:Em; [|apply restored_bad; exact Em].
    eapply wp_conseq; [|apply wp_opt_disable]. cbn beta. intros st1 e [H1 H2]. apply restored_one; assumption.
Qed.

(* which registered hosts DisableAll works on: the listing, or all given nodes when it cannot be read *)
Definition listed (tr : trace) (nodes : list host) (h : host) : Prop :=
  match tr with
  | e :: _ => match ev_resp e with RHosts l => In h l | _ => In h nodes end
  | [] => False
  end.
Definition settings_used (tr : trace) (rs : Z * Z) : Prop :=
  match tr with
  | _ :: e :: _ => match ev_resp e with RZ2 a b => rs = (a, b) | _ => rs = (1, 1) end
  | _ => True
  end.

Lemma listed_names s p e tr nodes hs h : runs (dcs_children_ s p) [e] (Done hs) -> listed (e :: tr) nodes h ->
  In h (match snd hs with Some _ => nodes | None => fst hs end).
Proof.
  cbn [listed]. intros (_ & _ & R). revert R. case (ev_resp e); intros; apply run_ret in R; destruct R as [_ <-]; assumption.
Qed.
Lemma settings_used_done s h e0 e tr r : runs (repl_settings s h) [e] (Done r) ->
  settings_used (e0 :: e :: tr) (match snd r with Some _ => (1, 1) | None => fst r end).
Proof.
  cbn [settings_used]. intros (_ & _ & R). revert R. case (ev_resp e); intros; apply run_ret in R; destruct R as [_ <-]; reflexivity.
Qed.

Theorem disable_all_spec cluster master nodes tr o : runs (opt_disable_all master nodes) tr o ->
  exists rs, settings_used tr rs /\ trace_ok ost (ostep rs) (ookc cluster) ost0 tr /\
    (o = Done None -> forall h, listed tr nodes h -> mem_host h nodes = true ->
       o_rest (fold_steps ost (ostep rs) ost0 tr) h = true).
Proof.
  unfold opt_disable_all. revert tr o. apply (holds_prim_bind _ _ _ _ _ (prim_dcs_children _ _)). intros e1 hs Ec1 D1. cbv zeta.
  apply (holds_prim_bind _ _ _ _ _ (prim_repl_settings _ _)). intros e2 r Ec2 D2. cbv zeta.
  set (names := match snd hs with Some _ => nodes | None => fst hs end).
  set (rs := match snd r with Some _ => (1, 1) | None => fst r end). intros tr2 o R2.
  exists rs. split; [exact (settings_used_done _ _ e1 _ tr2 _ D2)|].
  (* the two reads do not move the monitor; the loop is judged from its start *)
  apply (wp_after_reads rs cluster _ (fun st' e => e = None -> forall h, In h names -> mem_host h nodes = true -> o_rest st' h = true) [e1; e2]) in R2.
  2:{ repeat constructor; [rewrite Ec1|rewrite Ec2]; exact I. }
  2:{ apply wp_bind. eapply wp_conseq; [|apply wp_disable_loop]. cbn beta. intros st1 errs [K1 _] He. exact (K1 (if_none _ _ He)). }
  destruct R2 as [T1 T2]. split; [exact T1|].
  intros -> h Hl Hm. apply T2; [reflexivity|exact (listed_names _ _ _ _ _ _ _ D1 Hl)|exact Hm].
Qed.

Definition disable_call (c : call) : Prop :=
  match c with
  | DcsChildren POptNodes | Sql _ SReplSettings | Sql _ (SSetFlush _) | Sql _ (SSetSyncBinlog _) | DcsDelete (POptNode _) => True
  | _ => False
  end.
Lemma disable_all_calls master nodes : allcalls (fun _ c => disable_call c) (opt_disable_all master nodes).
Proof.
  unfold opt_disable_all. apply allcalls_bind; [walk ltac:(exact I)|]. intros hs. cbv zeta.
  apply allcalls_bind; [walk ltac:(exact I)|]. intros r. cbv zeta. apply allcalls_bind; [|intros errs; exact I].
  apply allcalls_forM. intros h _. unfold opt_disable. walk ltac:(first [exact I|apply ac_set_settings; exact I]).
Qed.

Definition switch_candidates (env : sw_env) (sw : switch_rec) : list host :=
  match sw_cause_ sw, sw_from sw with
  | CauseAuto, Some f => if N.eqb f (se_old_master env) then filter_out (se_active env) [se_old_master env] else se_active env
  | _, _ => se_active env
  end.
Lemma perform_switchover_head cfg env sw mem : exists k,
  perform_switchover cfg env sw mem =
    (if match sw_to sw with Some t => negb (mem_host t (se_active env)) | None => false end then Ret (SwErr 1227, mem)
     else if match dubious_ha_hosts (se_state env) with [] => false | _ => true end then Ret (SwErr 1232, mem)
     else e0 <- opt_disable_all_k (mem_host (se_old_master env) (map fst (se_all_hosts env))) (se_old_master env)
                  (registered_only (map fst (se_all_hosts env)) (switch_candidates env sw)) ;; k e0) /\
  forall x, k (Some x) = Ret (SwErr 1245, mem).
Proof. eexists. split; reflexivity. Qed.

(* the link: performSwitchover does nothing before DisableAll has completed without error
   on the candidates, and until then issues only DisableAll's own calls *)
Theorem switchover_disables_first cfg env sw mem tr o : runs (perform_switchover cfg env sw mem) tr o ->
  let active := registered_only (map fst (se_all_hosts env)) (switch_candidates env sw) in
  tr = [] \/
  exists tr1 tr2, tr = tr1 ++ tr2 /\
    Forall (fun e => disable_call (ev_call e)) tr1 /\
    (runs (opt_disable_all (se_old_master env) active) tr1 (Done None) \/
     (tr2 = [] /\ exists o1, runs (opt_disable_all_k (mem_host (se_old_master env) (map fst (se_all_hosts env))) (se_old_master env) active) tr1 o1 /\ o1 <> Done None)).
Proof.
  destruct (perform_switchover_head cfg env sw mem) as (K & -> & HK).
  case (match sw_to sw with Some t => negb (mem_host t (se_active env)) | None => false end); [intros [-> _]; left; reflexivity|].
  case (match dubious_ha_hosts (se_state env) with [] => false | _ => true end); [intros [-> _]; left; reflexivity|].
  set (active := registered_only (map fst (se_all_hosts env)) (switch_candidates env sw)).
  intros H. right.
  assert (AC : forall k, allcalls (fun _ c => disable_call c) (opt_disable_all_k k (se_old_master env) active)).
  { intros k. unfold opt_disable_all_k. destruct k; [apply disable_all_calls|walk ltac:(exact I)]. }
  destruct (runs_bind_inv _ _ _ _ H) as [(t1 & t2 & a & R1 & R2 & ->)|(s & R1 & ->)].
  - exists t1, t2. split; [reflexivity|].
    split; [exact (allcalls_sound _ _ (AC _) _ _ R1)|].
    destruct a as [x|].
    + right. rewrite HK in R2. destruct R2 as [-> _]. split; [reflexivity|]. exists (Done (Some x)). split; [exact R1|discriminate].
    + left. unfold opt_disable_all_k in R1. destruct (mem_host (se_old_master env) (map fst (se_all_hosts env))); [exact R1|].
      (* an unregistered old master: the listing is followed by the crash *)
      exfalso. destruct (prim_runs_bind _ _ _ _ _ _ (prim_dcs_children _ _) R1) as (e & t & hs & _ & _ & _ & [_ E]). discriminate E.
  - exists tr, []. split; [rewrite app_nil_r; reflexivity|].
    split; [exact (allcalls_sound _ _ (AC _) _ _ R1)|]. right. split; [reflexivity|]. exists (Panicked s). split; [exact R1|discriminate].
Qed.

(* REFUTED: "any pre-switchover speed-up phase has ended, with settings restored, before the freeze" is false
   of the code: Wait returns at its first tick because nothing ever sets the registry status to "enabled",
   the phase never deregisters its target, and a Sync of the syncer goroutine may meanwhile have relaxed
   the target.  Witness: master 1 with (1,1), replica 2 with lag 300 s and (1,1), request "switch to 2". *)
Definition w_ns (master : bool) (lag : option Z) : node_state :=
  {| ns_ping_ok := true; ns_ping_dubious := false; ns_is_master := master; ns_ro := negb master; ns_super_ro := negb master; ns_offline := false;
     ns_is_cascade := false; ns_fs_ro := false; ns_has_error := false; ns_disk := None; ns_daemon := None;
     ns_master_gtid := None;
     ns_slave := if master then None else Some {| rs_source := 1%N; rs_io := true; rs_sql := true; rs_io_errno := 0; rs_sql_errno := 0; rs_lag := lag;
                                                   rs_executed := []; rs_retrieved := []; rs_file := 1%N; rs_pos := 0 |};
     ns_semi := None; ns_repl_settings := Some (1, 1); ns_check_at := 0 |}.
Definition w_env : opt_env :=
  {| ov_master := 1%N; ov_states := [(1%N, w_ns true None); (2%N, w_ns false (Some 300))]; ov_cluster := [1%N; 2%N]; ov_low := 60; ov_high := 120 |}.
Definition w_sw : switch_rec :=
  {| sw_from := None; sw_to := Some 2%N; sw_cause_ := CauseManual; sw_kind := SwSwitchover; sw_master_transition := true;
     sw_run_count := 0; sw_initiated_at := 0; sw_started := true; sw_started_at := 0; sw_result := None |}.
Definition ev (s : site) (c : call) (r : resp) : event := {| ev_site := s; ev_call := c; ev_resp := r |}.
Definition w_wait : trace :=
  [ ev 40047 (Sleep (3 * sec)) ROk; ev 40046 Now (RZ (3 * sec)); ev 40065 (DcsGet (POptNode 2%N)) (RVal (VOpt false)) ].
Definition w_sync : trace :=
  [ ev 40258 (Peek (DcsChildren POptNodes)) (RBool true);
    ev 50080 (DcsChildren POptNodes) (RHosts [2%N]); ev 30044 (DcsGet (POptNode 2%N)) (RVal (VOpt false));
    ev 11148 (Sql 2%N (SSetFlush 2)) ROk; ev 11152 (Sql 2%N (SSetSyncBinlog 1000)) ROk;
    ev 40258 (Peek (DcsChildren POptNodes)) (RBool false) ].
Definition w_trace : trace :=
  [ ev 50141 (DcsCreate (POptNode 2%N) (VOpt false)) ROk; ev 40233 Now (RZ 0) ] ++ w_sync ++ w_wait.

Lemma interleave2_app a b : interleave2 a b (a ++ b).
Proof. exact (ProgFacts.interleave2_app a b). Qed.

Theorem phase_leaves_target_relaxed_and_registered_refuted : forall cfg, c_semi_sync cfg = true ->
  runs (optimization_phase 2 cfg w_env w_sw [1%N; 2%N] (10 * sec)) w_trace (Done tt) /\
  (* the target was registered by the phase and never deregistered *)
  In (ev 50141 (DcsCreate (POptNode 2%N) (VOpt false)) ROk) w_trace /\
  (forall e, In e w_trace -> ev_call e <> DcsDelete (POptNode 2%N)) /\
  (* it was given the relaxed settings, and its last settings statements are those *)
  o_rest (fold_steps ost (ostep (1, 1)) ost0 w_trace) 2%N = false /\
  In (ev 11152 (Sql 2%N (SSetSyncBinlog 1000)) ROk) w_trace.
Proof.
  intros cfg Hs. split; [|split; [|split; [|split]]].
  - unfold optimization_phase, phase_prefix. rewrite Hs. cbn [negb w_sw sw_to choose_replica_to_optimize bind].
    change (negb (mem_host 2%N (ov_cluster w_env))) with false. unfold w_trace, opt_enable, now_.
    cbn [bind app]. do 2 (split; [reflexivity|]). cbn [bind ev ev_resp]. do 2 (split; [reflexivity|]). cbn [bind ev ev_resp].
    (* the two branches, then all of the syncer's events before the waiter's *)
    apply runs_par. exists [w_wait; w_sync], [(0%N, ROk); (1%N, ROk)], None, (w_sync ++ w_wait). split; [|split].
    + apply br_done; [lazy; repeat split|]. apply br_done; [lazy; repeat split|]. apply br_nil.
    + exists w_sync. split; [exists []; split; reflexivity|apply interleave2_app_r].
    + exists [], [(0%N, ROk); (1%N, ROk)]. split; [symmetry; apply app_nil_r|]. split; [apply Permutation.Permutation_refl|split; reflexivity].
  - exact (nth_error_In w_trace 0 eq_refl).
  - apply Forall_forall. repeat (constructor; [discriminate|]). constructor.
  - reflexivity.
  - exact (nth_error_In w_trace 6 eq_refl).
Qed.
