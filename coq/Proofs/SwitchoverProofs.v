(* performSwitchover (Procs/Switchover.v): most of its calls are "calm" (reads, bookkeeping, freezing); between
   them stand two lock re-checks, RESET REPLICA ALL, SET read_only=0 and the write of the master key.  Three
   monitors watch these, and a fourth component says which hosts may be made writable; the procedure is walked
   once against their product ([switchover_spine]), and the monitored theorems, here and in MasterLast.v and
   LockLost.v, are projections of that walk; PromotedProofs.v uses the walk of stages 2 and 3 ([sp_after_positions])
   with the candidate's hosts for the fourth. *)
From Coq Require Import ZArith NArith Bool List Lia.
From Mysync Require Import Gtid.GtidSet Base.Prog Base.ProgFacts Base.Hoare Base.Config
  Procs.NodeOps Procs.ActiveNodes Procs.Switchover Proofs.NodeOpsProofs Proofs.ActiveNodesProofs.
Import ListNotations.
Open Scope Z_scope.

Lemma prim_dcs_get_time s p : prim s (DcsGet p) (dcs_get_time s p). Proof. prim_tac. Qed.
Lemma prim_dcs_delete s p : prim s (DcsDelete p) (dcs_delete_ s p). Proof. prim_tac. Qed.
Lemma prim_dcs_set s p v : prim s (DcsSet p v) (dcs_set_ s p v). Proof. prim_tac. Qed.
Lemma prim_dcs_children s p : prim s (DcsChildren p) (dcs_children_ s p). Proof. prim_tac. Qed.
Lemma prim_opt_delete_host s h : prim s (DcsDelete (POptNode h)) (opt_delete_host s h). Proof. prim_tac. Qed.
Lemma prim_lock_acquire s : prim s LockAcquire (lock_acquire s). Proof. prim_tac. Qed.
Lemma prim_get_priority s h : prim s (DcsGet (PHaNode h)) (get_priority s h).
Proof. eexists. split; [reflexivity|]. intros [[]| | | | | | | | | | |[]| | |]; eexists; reflexivity. Qed.
#[export] Hint Resolve prim_dcs_get_time prim_dcs_delete prim_dcs_set prim_dcs_children prim_opt_delete_host prim_lock_acquire
  prim_get_priority : prim.

Lemma oerr_done s c e a :
  runs (Do s c (fun r => match r with ROk => Ret None | RErr x => Ret (Some x) | _ => Ret (Some EOther) end)) [e] (Done a) ->
  (a = None <-> ev_resp e = ROk).
Proof.
  intros (_ & _ & R). revert R. generalize (ev_resp e). clear. intros r R.
  assert (E : a = match r with ROk => None | RErr x => Some x | _ => Some EOther end) by (revert R; case r; intros; symmetry; apply (run_ret _ _ _ R)).
  rewrite E. clear. split; [|intros ->; reflexivity]. case r; intros; (reflexivity || discriminate).
Qed.
Lemma dcs_set_done s p v e a : runs (dcs_set_ s p v) [e] (Done a) -> (a = None <-> ev_resp e = ROk).
Proof. exact (oerr_done _ _ e a). Qed.
Lemma dcs_delete_done s p e a : runs (dcs_delete_ s p) [e] (Done a) -> (a = None <-> ev_resp e = ROk).
Proof. exact (oerr_done _ _ e a). Qed.
Lemma lock_acquire_done s e l : runs (lock_acquire s) [e] (Done l) -> (l = true <-> ev_resp e = RBool true).
Proof.
  intros (_ & _ & R). revert R. generalize (ev_resp e). clear. intros r R.
  assert (E : l = match r with RBool b => b | _ => false end) by (revert R; case r; intros; symmetry; apply (run_ret _ _ _ R)).
  rewrite E. clear. split; [|intros ->; reflexivity]. case r as [| |[|]| | | | | | | | | | | |]; intros; (reflexivity || discriminate).
Qed.

(* the [if] at the head of a [located] goal *)
Ltac lif := match goal with |- located _ (if ?c then _ else _) _ => case c end.

Section Calm.
Variable P : call -> bool.
Notation PP := (fun (_ : site) (c : call) => P c = true).

Hypothesis Pnow : P Now = true.
Hypothesis Pread : forall h st, stmt_reads st = true -> P (Sql h st) = true.

Lemma c_gns h casc : allcalls PP (get_node_state h casc).
Proof. apply ac_get_node_state. unfold gns_calls_ok. repeat split; try exact Pnow; apply Pread; reflexivity. Qed.

Lemma c_cluster_state s hosts : allcalls PP (cluster_state_from_db s hosts).
Proof.
  unfold cluster_state_from_db. cbn [allcalls]. split; [|intros; exact I].
  induction hosts as [|[h c] r IH]; [exact I|]. cbn [map]. split; [|exact IH].
  apply allcalls_bind; [apply c_gns|]. intros; exact I.
Qed.
End Calm.

Definition sw_calm_stmt (st : stmt) : bool :=
  stmt_reads st || an_stmt_ok st ||
  match st with SSetRO _ | SKill _ | SSetOnline | SSetFlush _ | SSetSyncBinlog _ => true | _ => false end.

Definition dcs_calm (c : call) : bool :=
  match c with
  | DcsCreate PSwitch _ => false                              (* filing a request: only IssueFailover does that *)
  | DcsGet _ | DcsChildren _ | DcsDelete _ | DcsCreate _ _ | DcsSetEph _ _ | Now | Sleep _ | Peek _ | FileWrite _ | FileExists _ | FileRemove _ => true
  | DcsSet PMaster _ | DcsSet PLastSwitch _ => false     (* the two success records *)
  | DcsSet _ _ => true
  | _ => false
  end.

(* lock re-checks before anything is re-pointed or promoted *)
Definition promo_call (c : call) : bool :=
  match c with Sql _ SSetWritable | Sql _ SResetReplAll | DcsSet PMaster _ => true | _ => false end.
Definition repoint_call (c : call) : bool := match c with Sql _ (SChangeSource _) => true | _ => false end.
Definition lk_step (st : Z) (c : call) (r : resp) : Z :=
  match c, r with LockAcquire, RBool true => st + 1 | _, _ => st end.
Definition lk_ok (st : Z) (c : call) : Prop :=
  (promo_call c = true -> 2 <= st) /\ (repoint_call c = true -> 1 <= st).

Definition calmb (c : call) : bool :=
  match c with
  | Sql _ st => sw_calm_stmt st
  | LockAcquire | LockRelease | DcsConnected => false
  | _ => dcs_calm c
  end.
Definition calm1b (c : call) : bool :=
  match c with Sql _ (SChangeSource _) | Sql _ SStopRepl | Sql _ SStartRepl => true | _ => calmb c end.

Local Notation calm := (fun (_ : site) (c : call) => calmb c = true).
Local Notation calm1 := (fun (_ : site) (c : call) => calm1b c = true).

Lemma calm_reads h st : stmt_reads st = true -> calmb (Sql h st) = true.
Proof. intros H. cbn. unfold sw_calm_stmt. rewrite H. reflexivity. Qed.
Lemma calmb_calm1b c : calmb c = true -> calm1b c = true.
Proof. intros H. unfold calm1b. destruct c; try exact H. destruct s; try exact H; reflexivity. Qed.
Lemma calm1b_dcs c : dcs_calm c = true -> calm1b c = true.
Proof. intros H. apply calmb_calm1b. destruct c; try exact H; discriminate H. Qed.
Lemma calm_calm1 {A} (p : prog A) : allcalls calm p -> allcalls calm1 p.
Proof. apply allcalls_impl. intros _. exact calmb_calm1b. Qed.

(* The footprints of the calm sub-procedures are collected in the hint database [calm], keyed by the
   procedure; [cwalk] walks a program built from them. *)
Create HintDb calm discriminated.
Ltac cwalk := walk ltac:(first [exact I | reflexivity | solve [auto 1 with calm nocore]]).

Lemma c_now s : allcalls calm (now_ s). Proof. cwalk. Qed.
Lemma cs_calm s hosts : allcalls calm (cluster_state_from_db s hosts).
Proof. apply (c_cluster_state calmb); [reflexivity|exact calm_reads]. Qed.
Lemma c_gns_calm h casc : allcalls calm (get_node_state h casc).
Proof. exact (c_gns calmb eq_refl calm_reads h casc). Qed.

Lemma c_node_positions s hosts : allcalls calm (node_positions s hosts).
Proof.
  unfold node_positions. split.
  - apply (all_branches_map _ hosts (fun h => h)). intros h _. unfold position_of. cbv zeta. cwalk.
  - intros rs. destruct (existsb _ rs); exact I.
Qed.

Lemma c_wait_repl_start fuel h dl : allcalls calm1 (wait_repl_start fuel h dl).
Proof. induction fuel as [|f IH]; cbn [wait_repl_start]; walk ltac:(first [exact I | reflexivity | exact IH]). Qed.
#[export] Hint Resolve c_gns_calm c_wait_repl_start : calm.

Lemma pcm_calm1 cfg h m : allcalls calm1 (perform_change_master cfg h m).
Proof. unfold perform_change_master. cwalk. Qed.
#[export] Hint Resolve pcm_calm1 : calm.

Lemma c_wait_catch_up fuel cfg h target sw dl : allcalls calm (wait_for_catch_up fuel cfg h target sw dl).
Proof.
  induction fuel as [|f IH]; cbn [wait_for_catch_up]; [exact I|].
  set (again := Do 2308 (Sleep sec) _).
  assert (G : allcalls calm again) by (subst again; walk ltac:(first [reflexivity | exact IH])).
  clearbody again. apply allcalls_bind; [cwalk|]. intros g. case (snd g); [intros; exact I|]. case (set_contain (fst g) target); [exact I|].
  apply allcalls_do; [reflexivity|]. intros r.
  apply (pending_request_cases r _ _ _ (allcalls calm)); [intros cur|intros _; exact I|exact G].
  apply allcalls_bind; [unfold async_switch_allowed; cwalk|]. intros a. case a; [exact I|exact G].
Qed.

Lemma d_timing_now n : allcalls calm (start_timing_now n).
Proof. unfold start_timing_now. cwalk. Qed.
Lemma d_stop_timing n : allcalls calm (stop_timing n).
Proof. unfold stop_timing. cwalk. Qed.
Lemma d_log_failure sw : allcalls calm (log_switchover_failure sw).
Proof. unfold log_switchover_failure. cwalk. Qed.
#[export] Hint Resolve d_timing_now d_log_failure : calm.

Lemma d_finish sw : allcalls calm (finish_switchover sw false).
Proof. unfold finish_switchover. cbn [negb]. cwalk. Qed.

Lemma d_set_ro_once h s : allcalls calm (set_read_only_once h s).
Proof. apply ac_set_read_only_once; reflexivity. Qed.
Lemma d_force fuel h s : allcalls calm (set_read_only_with_force fuel h s).
Proof. apply ac_set_read_only_with_force; intros; reflexivity. Qed.
#[export] Hint Resolve d_set_ro_once d_force : calm.

Lemma d_freeze env h : allcalls calm (freeze_host env h).
Proof. unfold freeze_host, set_read_only. cwalk. Qed.

Lemma d_stop_io env h c : allcalls calm (stop_io_host env h c).
Proof. unfold stop_io_host. cwalk. Qed.

Lemma d_opt_disable_all m nodes : allcalls calm (opt_disable_all m nodes).
Proof.
  unfold opt_disable_all. apply allcalls_bind; [cwalk|]. intros hs. apply allcalls_bind; [cwalk|]. intros r.
  apply allcalls_bind; [|intros; exact I]. apply allcalls_forM. intros h _.
  unfold opt_disable, set_repl_settings. cwalk.
Qed.
#[export] Hint Resolve d_opt_disable_all : calm.

Lemma d_opt_disable_all_k k m nodes : allcalls calm (opt_disable_all_k k m nodes).
Proof. unfold opt_disable_all_k. cwalk. Qed.

Lemma d_set_recovery h : allcalls calm (set_recovery h).
Proof. unfold set_recovery. cwalk. Qed.

Lemma an_call_calm c : an_call_ok c -> calmb c = true.
Proof.
  destruct c as [h st|p|p v|p v|p|p|p v| | | | |d|c|f|f|f]; cbn; try contradiction; try reflexivity.
  - intros H. unfold sw_calm_stmt. rewrite H, orb_true_r. reflexivity.
  - destruct p; try contradiction; reflexivity.
  - destruct p; try contradiction; reflexivity.
Qed.
Lemma d_update_active cfg env mem : allcalls calm (update_active_nodes cfg env mem).
Proof. eapply allcalls_impl; [|apply update_active_nodes_calls]. intros s c. apply an_call_calm. Qed.

#[export] Hint Resolve d_set_recovery : calm.

(* lk counts the lock re-checks answered "held".
   ml: (host made writable with an OK answer, master key written, that write answered OK). *)
Definition ml_state := (option host * bool * bool)%type.
Definition mw (st : ml_state) : option host := fst (fst st).
Definition mdone (st : ml_state) : bool := snd (fst st).
Definition mokd (st : ml_state) : bool := snd st.
Definition ml_step (st : ml_state) (c : call) (r : resp) : ml_state :=
  match c, r with
  | Sql h SSetWritable, ROk => (Some h, mdone st, mokd st)
  | DcsSet PMaster _, ROk => (mw st, true, true)
  | DcsSet PMaster _, _ => (mw st, true, false)
  | _, _ => st
  end.
Definition ml_ok (st : ml_state) (c : call) : Prop :=
  mdone st = false /\
  match c with
  | DcsSet PMaster v => exists h, v = VHost h /\ mw st = Some h
  | DcsSet PLastSwitch _ => False             (* the procedure itself never records a success *)
  | DcsCreate PSwitch _ => False              (* ... and never files a request *)
  | _ => True
  end.
(* the procedure reports success only when the master key was written and the write was answered OK *)
Definition ml_post {X} (st : ml_state) (a : sw_err * X) : Prop := fst a = SwOk -> mokd st = true.
Definition ml_init : ml_state := (None, false, false).

(* ll: has a lock request been answered with anything but "held"?  Then nothing more is allowed, and the
   procedure leaves through one of the two exits the manager iteration reads as "lock lost". *)
Definition ll_step (st : bool) (c : call) (r : resp) : bool :=
  match c, r with
  | LockAcquire, RBool true => st
  | LockAcquire, _ => true
  | _, _ => st
  end.
Definition ll_ok (st : bool) (c : call) : Prop := st = false.
Definition ll_post {X} (st : bool) (a : sw_err * X) : Prop := st = true -> fst a = SwErr 1351 \/ fst a = SwErr 1422.

Definition wr_ok (W : host -> Prop) (c : call) : Prop := match c with Sql h SSetWritable => W h | _ => True end.

(* the three monitors side by side, with W the hosts that may be made writable *)
Definition sp_state := (Z * ml_state * bool)%type.
Definition sp_lk (s : sp_state) : Z := fst (fst s).
Definition sp_ml (s : sp_state) : ml_state := snd (fst s).
Definition sp_ll (s : sp_state) : bool := snd s.
Definition sp_step (s : sp_state) (c : call) (r : resp) : sp_state :=
  (lk_step (sp_lk s) c r, ml_step (sp_ml s) c r, ll_step (sp_ll s) c r).
Definition sp_ok (W : host -> Prop) (s : sp_state) (c : call) : Prop :=
  lk_ok (sp_lk s) c /\ ml_ok (sp_ml s) c /\ ll_ok (sp_ll s) c /\ wr_ok W c.
Definition sp_post {X} (s : sp_state) (a : sw_err * X) : Prop := ml_post (sp_ml s) a /\ ll_post (sp_ll s) a.
Definition sp_init : sp_state := (0, ml_init, false).

(* between the special calls: lo re-checks were answered "held", the master key is untouched, no refusal *)
Definition sp_inv (lo : Z) (s : sp_state) : Prop := lo <= sp_lk s /\ mdone (sp_ml s) = false /\ sp_ll s = false.

Lemma calmb_repoint c : calmb c = true -> repoint_call c = false.
Proof. destruct c; try reflexivity. destruct s; try reflexivity. discriminate. Qed.
Lemma calm1_wr_ok W c : calm1b c = true -> wr_ok W c.
Proof. intros H. destruct c; try exact I. destruct s; try exact I. discriminate H. Qed.

Section Spine.
Variable W : host -> Prop.
Notation SP := (wp sp_state sp_step (sp_ok W)).
Notation sp_still st := (fun (_ : site) c => sp_ok W st c /\ neutral sp_state sp_step c).

Lemma sp_calm1 lo s c : calm1b c = true -> sp_inv lo s -> (repoint_call c = true -> 1 <= lo) ->
  sp_ok W s c /\ neutral sp_state sp_step c.
Proof.
  intros H (Hk & Hd & Hl) Hr. split.
  - split; [split; [intros K|intros K; exact (Z.le_trans _ _ _ (Hr K) Hk)]|split; [split; [exact Hd|]|split; [exact Hl|]]].
    + destruct c; try discriminate K; [destruct s0|destruct p]; discriminate.
    + destruct c; try exact I; destruct p; try exact I; discriminate H.
    + exact (calm1_wr_ok W c H).
  - intros [[a m] d] r. unfold sp_step, sp_lk, sp_ml, sp_ll. cbn [fst snd]. f_equal; [f_equal|].
    + destruct c; try reflexivity. discriminate H.
    + destruct c; try reflexivity; [destruct s0|destruct p]; try reflexivity; discriminate H.
    + destruct c; try reflexivity. discriminate H.
Qed.

Lemma sp_of_calm {A} lo (p : prog A) st : sp_inv lo st -> allcalls calm p -> allcalls (sp_still st) p.
Proof.
  intros Hi. apply allcalls_impl. intros _ c K. apply (sp_calm1 lo); [apply calmb_calm1b; exact K|exact Hi|].
  rewrite (calmb_repoint c K). discriminate.
Qed.
Lemma sp_of_calm1 {A} lo (p : prog A) st : 1 <= lo -> sp_inv lo st -> allcalls calm1 p -> allcalls (sp_still st) p.
Proof. intros Hlo Hi. apply allcalls_impl. intros _ c K. apply (sp_calm1 lo); [exact K|exact Hi|intros _; exact Hlo]. Qed.

Lemma sp_reset st h : sp_inv 2 st -> sp_ok W st (Sql h SResetReplAll) /\ neutral sp_state sp_step (Sql h SResetReplAll).
Proof.
  intros (Hk & Hd & Hl). split; [|intros [[a m] d] r; reflexivity].
  split; [split; [intros _; exact Hk|discriminate]|]. split; [split; [exact Hd|exact I]|]. split; [exact Hl|exact I].
Qed.

Lemma sp_err lo st code {X} (m : X) : sp_inv lo st -> sp_post st (SwErr code, m).
Proof. intros (_ & _ & Hl). split; [discriminate|]. intros K. rewrite Hl in K. discriminate K. Qed.

Lemma sp_lock s code lo st {X} (mem : X) (k : prog (sw_err * X)) : SwErr code = SwErr 1351 \/ SwErr code = SwErr 1422 -> sp_inv lo st ->
  (forall st', sp_inv (lo + 1) st' -> SP st' k sp_post) ->
  SP st (l <- lock_acquire s ;; if negb l then Ret (SwErr code, mem) else k) sp_post.
Proof.
  intros Hc (Hk & Hd & Hl) K. split.
  { split; [split; discriminate|]. split; [split; [exact Hd|exact I]|]. split; [exact Hl|exact I]. }
  intros r.
  assert (Refused : forall st', sp_post st' (SwErr code, mem)) by (intros st'; split; [discriminate|intros _; exact Hc]).
  destruct r as [er| |[|]| | | | | | | | | | | |]; try apply Refused.
  apply K. split; [|split; [exact Hd|exact Hl]]. exact (proj1 (Z.add_le_mono_r _ _ 1) Hk).
Qed.

Lemma sp_set_writable s nm st {B} (k : oerr -> prog B) Q : sp_inv 2 st -> W nm ->
  (forall st' e, sp_inv 2 st' -> (e = None -> mw (sp_ml st') = Some nm) -> SP st' (k e) Q) ->
  SP st (e <- exec_ s nm SSetWritable ;; k e) Q.
Proof.
  intros Hi Hw K. pose proof Hi as (Hk & Hd & Hl). split.
  { split; [split; [intros _; exact Hk|discriminate]|]. split; [split; [exact Hd|exact I]|]. split; [exact Hl|exact Hw]. }
  intros r. destruct r; apply K; try exact Hi; try discriminate. reflexivity.
Qed.

Lemma sp_set_master s nm st {X} (f : oerr -> sw_err) (m : X) : sp_inv 2 st -> mw (sp_ml st) = Some nm ->
  (forall e, f e = SwOk -> e = None) -> SP st (e <- dcs_set_ s PMaster (VHost nm) ;; Ret (f e, m)) sp_post.
Proof.
  intros (Hk & Hd & Hl) Hw Hf. split.
  { split; [split; [intros _; exact Hk|discriminate]|]. split; [split; [exact Hd|exists nm; split; [reflexivity|exact Hw]]|]. split; [exact Hl|exact I]. }
  intros r. assert (L : forall st' a, sp_ll st' = false -> ll_post (X := X) (sp_ll st') a) by (intros st' a E K; rewrite E in K; discriminate K).
  destruct r; (split; [intros E; apply Hf in E; try discriminate E; reflexivity|apply L; exact Hl]).
Qed.

End Spine.

Local Notation SP W := (wp sp_state sp_step (sp_ok W)).
(* [calm lo]: a bind whose first part is calm, under the invariant with lo re-checks; [ifc]: the [if] at the head of
   a wp goal; [err]: an error exit, allowed by the invariant in the context *)
Local Ltac calm lo := apply wp_bind_neutral; [apply (sp_of_calm _ lo); [assumption|] | ].
Ltac ifc := match goal with |- wp _ _ _ _ (if ?c then _ else _) _ => case c end.
Local Ltac err := match goal with H : sp_inv ?lo _ |- _ => exact (sp_err lo _ _ _ H) end.

Lemma sp_promote (W : host -> Prop) cfg env mem active nm mrs st : W nm -> sp_inv 1 st -> SP W st (sw_promote cfg env mem active nm mrs) sp_post.
Proof.
  intros Hw Hi. unfold sw_promote.
  apply (sp_lock _ _ _ 1); [right; reflexivity|exact Hi|]. clear st Hi. intros st Hi. change (sp_inv 2 st) in Hi.
  calm 2; [apply cs_calm|]. intros cs2.
  case (state_ping cs2 nm) as [[|]|]; [|err|exact I].
  ifc; [err|].
  calm 2; [cwalk|]. intros [e5|]; [err|].
  split.
  { apply all_branches_map. intros h _. apply (sp_of_calm1 _ 2); [discriminate|exact Hi|].
    cwalk. }
  intros errs3. ifc; [err|].
  calm 2; [cwalk|]. intros os.
  calm 2; [cwalk|]. intros [rec|]; [err|].
  calm 2; [cwalk|]. intros [e6|]; [err|].
  apply wp_bind_neutral; [apply ac_exec, sp_reset; exact Hi|]. intros [e7|]; [err|].
  calm 2; [apply cs_calm|]. intros cs3.
  calm 2; [apply d_update_active|]. intros ua. cbv zeta.
  apply sp_set_writable; [exact Hi|exact Hw|]. clear st Hi. intros st [e8|] Hi Hm; [err|].
  calm 2; [apply d_stop_timing|]. intros _.
  calm 2; [unfold reenable_events; cwalk|]. intros _.
  apply (sp_set_master _ _ nm); [exact Hi|exact (Hm eq_refl)|]. intros [e|] E; [discriminate E|reflexivity].
Qed.

Lemma sp_after_positions (W : host -> Prop) cfg env sw mem active positions st :
  (forall mrh mrs, most_recent positions = RecentFound mrh mrs -> forall nm, sw_choose cfg sw positions mrh = Some nm -> W nm) ->
  sp_inv 1 st -> SP W st (sw_after_positions cfg env sw mem active positions) sp_post.
Proof.
  intros Hw Hi. unfold sw_after_positions. generalize 2000%nat as fuel. intros fuel.
  destruct (most_recent positions) as [|mrh mrs|]; [| |exact I].
  { split; [apply (sp_calm1 _ 1 st (FileWrite (se_emerge_file env)) eq_refl Hi); discriminate|]. intros r. exact (sp_err 1 _ _ _ Hi). }
  specialize (Hw mrh mrs eq_refl). destruct (sw_choose cfg sw positions mrh) as [nm|]; [|err].
  specialize (Hw nm eq_refl).
  ifc; [err|].
  apply wp_bind_neutral.
  { apply (sp_of_calm1 _ 1); [discriminate|exact Hi|]. cwalk. }
  intros pre. ifc; [err|].
  calm 1; [apply c_now|]. intros t0.
  calm 1; [apply c_wait_catch_up|]. intros cu.
  case cu as [[|]|]; [|err|err]. apply sp_promote; assumption.
Qed.

Theorem switchover_spine cfg env sw mem : SP (fun _ => True) sp_init (perform_switchover cfg env sw mem) sp_post.
Proof.
  assert (Hi : sp_inv 0 sp_init) by (split; [discriminate|split; reflexivity]).
  revert Hi. generalize sp_init as st. intros st Hi.
  unfold perform_switchover.
  ifc; [err|]. ifc; [err|].
  set (active := match sw_cause_ sw, sw_from sw with | CauseAuto, Some f => _ | _, _ => _ end).
  calm 0; [apply d_opt_disable_all_k|]. intros [e0|]; [err|].
  calm 0; [cwalk|]. intros _.
  split; [apply all_branches_map; intros h _; apply (sp_of_calm _ 0 _ _ Hi), d_freeze|]. intros errs.
  ifc; [calm 0; [apply d_finish|]; intros [e|]; err|].
  case (state_ping (se_state env) (se_old_master env)); [intros _|exact I].
  split; [apply all_branches_map; intros h _; apply (sp_of_calm _ 0 _ _ Hi), d_stop_io|]. intros errs2.
  ifc; [err|].
  apply (sp_lock _ _ _ 0); [left; reflexivity|exact Hi|]. clear st Hi. intros st Hi. change (sp_inv 1 st) in Hi.
  calm 1; [apply c_node_positions|]. intros [positions|]; [|err].
  ifc; [err|]. ifc; [err|].
  apply sp_after_positions; [intros; exact I|exact Hi].
Qed.

Theorem switchover_lock_rechecks cfg env sw mem : safe Z lk_step lk_ok 0 (perform_switchover cfg env sw mem).
Proof.
  apply (wp_safe Z lk_step lk_ok _ _ (fun _ _ => True)).
  apply (wp_map _ _ sp_step (sp_ok (fun _ => True)) _ _ sp_lk (fun z => (z, ml_init, false)) (fun _ => eq_refl)
           (fun s c H => proj1 H) (fun s c r => eq_refl) _ sp_init).
  eapply wp_conseq; [|apply switchover_spine]. intros; exact I.
Qed.

(* split brain: nothing but the emergency marker *)
Theorem splitbrain_aborts cfg env sw mem active positions :
  most_recent positions = RecentSplitBrain ->
  sw_after_positions cfg env sw mem active positions = Do 1370 (FileWrite (se_emerge_file env)) (fun _ => Ret (SwErr 1375, mem)).
Proof. intros H. unfold sw_after_positions. generalize 2000%nat. rewrite H. reflexivity. Qed.

Definition has_event (tr : trace) (c : call) (r : resp) : Prop := exists e, In e tr /\ ev_call e = c /\ ev_resp e = r.

(* promotion evidence: the new master reported an executed set that contains
   the most recent position (or the async-lag exception fired) *)
Definition catch_up_evidence (cfg : config) (nm : host) (target : gtidset) (tr : trace) : Prop :=
  (exists g, has_event tr (Sql nm SGtidExecuted) (RGtid g) /\ set_contain g target = true) \/
  (c_async cfg = true /\ 0 < c_async_allowed_lag cfg /\ exists d, has_event tr (Sql nm SReplMonDelay) (RZ d) /\ d * sec < c_async_allowed_lag cfg).

Lemma has_event_incl t t' c r : incl t t' -> has_event t c r -> has_event t' c r.
Proof. intros Hi (x & Hx & H). exists x. split; [exact (Hi x Hx)|exact H]. Qed.
Lemma catch_up_evidence_incl cfg nm tgt t t' : incl t t' -> catch_up_evidence cfg nm tgt t -> catch_up_evidence cfg nm tgt t'.
Proof.
  intros Hi [(g & Hg & Hc)|(A1 & A2 & d & Hd & Hl)].
  - left. exists g. split; [exact (has_event_incl _ _ _ _ Hi Hg)|exact Hc].
  - right. split; [exact A1|]. split; [exact A2|]. exists d. split; [exact (has_event_incl _ _ _ _ Hi Hd)|exact Hl].
Qed.

Lemma async_allowed_true cfg h sw tgt :
  returns (async_switch_allowed cfg h sw) (fun tr a => a = true -> catch_up_evidence cfg h tgt tr).
Proof.
  unfold async_switch_allowed. destruct (sw_cause_ sw); try (apply returns_ret; discriminate).
  destruct (c_async cfg) eqn:Ea; [|apply returns_ret; discriminate].
  destruct (Z.ltb_spec 0 (c_async_allowed_lag cfg)) as [Hl|Hl]; [|apply returns_ret; discriminate]. cbn [andb].
  apply returns_do. intros e1 _.
  set (ask := Do 60019 (Sql h SReplMonDelay) _).
  assert (G : returns ask (fun t a => a = true -> catch_up_evidence cfg h tgt (e1 :: t))).
  { subst ask. apply returns_do. intros e2 Ec. destruct (ev_resp e2) eqn:Er; apply returns_ret; try discriminate.
    intros E. apply Z.ltb_lt in E. right. split; [exact Ea|]. split; [exact Hl|]. exists z. split; [|exact E].
    exists e2. split; [right; left; reflexivity|]. split; assumption. }
  clearbody ask. case (ev_resp e1) as [[]| | | | | | | | | | |v| | |]; first [exact G | apply returns_ret; discriminate].
Qed.

Lemma wait_catch_up_true fuel cfg h target sw dl :
  returns (wait_for_catch_up fuel cfg h target sw dl) (fun tr r => r = Some true -> catch_up_evidence cfg h target tr).
Proof.
  induction fuel as [|f IH]; cbn [wait_for_catch_up]; [apply returns_ret; discriminate|].
  (* the sleep-and-retry tail stands in most branches of the decoded answer: name it before the case split *)
  set (again := Do 2308 (Sleep sec) _).
  assert (G : forall pre, returns again (fun t r => r = Some true -> catch_up_evidence cfg h target (pre ++ t))).
  { intros pre. subst again. apply returns_do. intros e3 _. apply returns_bind. intros t0 t2 _. case (dl <? t0); [apply returns_ret; discriminate|].
    eapply returns_conseq; [|exact IH]. intros t r K E. apply (catch_up_evidence_incl _ _ _ t); [|exact (K E)].
    apply incl_appr, incl_tl, incl_appr, incl_refl. }
  clearbody again. apply (holds_prim_bind _ _ _ _ _ (prim_gtid_executed _ _)). intros e1 g Ec1 R1.
  destruct (snd g) eqn:Es; [apply returns_ret; discriminate|]. destruct (set_contain (fst g) target) eqn:Ec.
  { apply returns_ret. intros _. left. exists (fst g). split; [|exact Ec]. exists e1. split; [left; reflexivity|].
    split; [exact Ec1|exact (gtid_executed_done _ _ _ _ R1 Es)]. }
  apply returns_do. intros e2 _.
  apply (pending_request_cases (ev_resp e2) _ _ _ (fun p => returns p _)); [intros cur|intros _; apply returns_ret; discriminate|exact (G [e1; e2])].
  apply returns_bind. intros [|] u1 Ra; [|exact (G (e1 :: e2 :: u1))].
  apply returns_ret. intros _. apply (catch_up_evidence_incl _ _ _ u1); [|exact (async_allowed_true _ _ _ _ _ _ Ra eq_refl)].
  apply incl_tl, incl_tl, incl_appl, incl_refl.
Qed.

Definition issues_set_writable (tr : trace) : Prop := exists e h, In e tr /\ ev_call e = Sql h SSetWritable.

(* every run of stage 2 that makes a node writable found a most recent position, chose a candidate, and
   BEFORE doing so saw the candidate report an executed set containing that position (or the configured
   async-lag exception) *)
Theorem promotion_after_catch_up cfg env sw mem active positions tr o :
  runs (sw_after_positions cfg env sw mem active positions) tr o ->
  forall a e b h, tr = a ++ e :: b -> ev_call e = Sql h SSetWritable ->
  exists mrh mrs nm, most_recent positions = RecentFound mrh mrs /\ sw_choose cfg sw positions mrh = Some nm /\
                     catch_up_evidence cfg nm mrs a.
Proof.
  intros R a e b h E Ec. assert (Hin : In e tr) by (rewrite E; apply in_elt). revert a b E. revert tr o R Hin.
  assert (Hbad : ~ ProgFacts.ev_ok calm1 e) by (unfold ProgFacts.ev_ok; rewrite Ec; discriminate).
  (* where in a run can e be?  Everything before stage 3 is calm, and stage 3 is entered with the evidence *)
  change (located e (sw_after_positions cfg env sw mem active positions) (fun tr => forall a b, tr = a ++ e :: b -> exists mrh mrs nm,
    most_recent positions = RecentFound mrh mrs /\ sw_choose cfg sw positions mrh = Some nm /\ catch_up_evidence cfg nm mrs a)).
  unfold sw_after_positions. generalize 2000%nat as fuel. intros fuel.
  destruct (most_recent positions) as [|mrh mrs|]; [apply (located_quiet calm1 e Hbad), quiet_allcalls; cwalk| |apply located_panic].
  destruct (sw_choose cfg sw positions mrh) as [nm|] eqn:Ech; [|apply located_ret].
  lif; [apply located_ret|].
  apply (located_bind_notin calm1 e Hbad); [apply quiet_allcalls; cwalk|].
  intros pre t1 _ N1. destruct (negb pre); [apply located_ret|].
  apply (located_bind_notin calm1 e Hbad); [apply quiet_allcalls, calm_calm1, c_now|]. intros t0 t2 _ N2.
  apply (located_bind_notin calm1 e Hbad); [apply quiet_allcalls, calm_calm1, c_wait_catch_up|]. intros cu t3 R3 N3.
  destruct cu as [[|]|]; [|apply located_ret..].
  intros tr o _ _ a b E. exists mrh, mrs, nm. split; [reflexivity|]. split; [exact Ech|].
  apply (catch_up_evidence_incl _ _ _ t3); [|exact (wait_catch_up_true _ _ _ _ _ _ _ _ R3 eq_refl)].
  rewrite 2 app_assoc in E. apply incl_tran with (m := (t1 ++ t2) ++ t3); [apply incl_appr, incl_refl|].
  apply (before_first e _) with (2 := E). intros K. apply in_app_or in K. destruct K as [K|K]; [apply in_app_or in K; destruct K|]; contradiction.
Qed.

Theorem promotion_needs_catch_up cfg env sw mem active positions tr o :
  runs (sw_after_positions cfg env sw mem active positions) tr o ->
  issues_set_writable tr ->
  exists mrh mrs nm, most_recent positions = RecentFound mrh mrs /\ sw_choose cfg sw positions mrh = Some nm /\
                     catch_up_evidence cfg nm mrs tr.
Proof.
  intros R (e & h & Hin & Ec). destruct (in_split _ _ Hin) as (a & b & E).
  destruct (promotion_after_catch_up _ _ _ _ _ _ _ _ R a e b h E Ec) as (mrh & mrs & nm & E1 & E2 & Ev).
  exists mrh, mrs, nm. split; [exact E1|]. split; [exact E2|].
  apply (catch_up_evidence_incl _ _ _ a); [rewrite E; apply incl_appl, incl_refl|exact Ev].
Qed.
