From Coq Require Import ZArith Bool List.
From Mysync Require Import Pure.Quorum Generated.SwitchHelperGen.
Open Scope Z_scope.

Lemma gen_required_eq sh n : SwitchHelperGen.required_wsc sh n = Quorum.required_wsc (sh_w sh) n.
Proof. reflexivity. Qed.
Lemma gen_quorum_eq sh n : SwitchHelperGen.failover_quorum sh n = Quorum.failover_quorum (sh_w sh) n.
Proof. reflexivity. Qed.
Lemma gen_check_eq sh n p :
  SwitchHelperGen.check_quorum sh n p = Quorum.check_quorum (sh_semisync sh) (sh_w sh) n p.
Proof.
  unfold SwitchHelperGen.check_quorum, Quorum.check_quorum. rewrite gen_quorum_eq. destruct (sh_semisync sh); [destruct (_ <? _)|destruct (_ =? _)]; reflexivity.
Qed.
