(* findBestStreamFrom, "otherwise the nearest healthy ancestor along the configured chain": once the walk has left the
   replica (the path holds at least two hosts: the ancestor being looked at and, last, the replica), an unhealthy
   configured source that is not yet on the path is skipped (the walk goes on from it), a healthy one is the answer,
   and a source that is already on the path (a cycle, anywhere in the chain) or not registered ends the walk at the
   master. *)
From Coq Require Import ZArith NArith Bool List.
From Mysync Require Import Base.Prog Base.Config Procs.ActiveNodes Procs.Repair Proofs.RepairProofs.
Open Scope Z_scope.
Import ListNotations.

Section Walk.
Variables (cfg : config) (env : repair_env) (topo : list (host * option host)) (self : host).
Variables (fuel : nat) (x y : host) (rest : list host) (sf : host).
Hypothesis Hcfg : assoc x topo = Some (Some sf).

(* past the first step the walk does not ask what the replica streams from *)
Lemma fb_next_walk : fb_next cfg env topo self (x :: y :: rest) =
  if mem_host sf (x :: y :: rest) then inl (re_master env)
  else match assoc sf (re_state env) with
       | None => inl (re_master env)
       | Some cand => if source_healthy cfg cand then inl sf else inr sf
       end.
Proof. unfold fb_next. cbn [fb_cur fb_streaming]. rewrite Hcfg. reflexivity. Qed.

Lemma walk_skips_unhealthy cand : mem_host sf (x :: y :: rest) = false ->
  assoc sf (re_state env) = Some cand -> source_healthy cfg cand = false ->
  find_best_stream_from (S fuel) cfg env topo self (x :: y :: rest) =
  find_best_stream_from fuel cfg env topo self (sf :: x :: y :: rest).
Proof. intros Hm Hs Hh. rewrite find_best_S, fb_next_walk, Hm, Hs, Hh. reflexivity. Qed.

Lemma walk_stops_at_healthy cand : mem_host sf (x :: y :: rest) = false ->
  assoc sf (re_state env) = Some cand -> source_healthy cfg cand = true ->
  find_best_stream_from (S fuel) cfg env topo self (x :: y :: rest) = Ret sf.
Proof. intros Hm Hs Hh. rewrite find_best_S, fb_next_walk, Hm, Hs, Hh. reflexivity. Qed.

Lemma walk_cycle_is_master : mem_host sf (x :: y :: rest) = true ->
  find_best_stream_from (S fuel) cfg env topo self (x :: y :: rest) = Ret (re_master env).
Proof. intros Hm. rewrite find_best_S, fb_next_walk, Hm. reflexivity. Qed.

Lemma walk_unregistered_is_master : mem_host sf (x :: y :: rest) = false -> assoc sf (re_state env) = None ->
  find_best_stream_from (S fuel) cfg env topo self (x :: y :: rest) = Ret (re_master env).
Proof. intros Hm Hs. rewrite find_best_S, fb_next_walk, Hm, Hs. reflexivity. Qed.
End Walk.

(* the first step, from the replica itself: an unhealthy configured source that the replica does not stream from is
   skipped *)
Lemma first_step_skips_unhealthy cfg env topo self fuel sf cand me :
  assoc self topo = Some (Some sf) -> mem_host sf [self] = false ->
  assoc self (re_state env) = Some me ->
  ns_repl_running me && match ns_slave me with Some rs => N.eqb (rs_source rs) sf | None => false end = false ->
  assoc sf (re_state env) = Some cand -> source_healthy cfg cand = false ->
  find_best_stream_from (S fuel) cfg env topo self [self] =
  find_best_stream_from fuel cfg env topo self [sf; self].
Proof.
  intros Ht Hm Hme Hstr Hs Hh. rewrite find_best_S. unfold fb_next. cbn [fb_cur fb_streaming].
  rewrite Ht, Hm, Hme, Hstr, Hs, Hh. reflexivity.
Qed.
