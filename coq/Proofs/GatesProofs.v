(* C05, the whole iteration: the gates of stateManager (up to the repair tail) file an automatic
   failover request only after the maintenance record AND the pending-request key were both read
   as absent in the same iteration, and only through failure detection (hence through an approval). *)
From Coq Require Import ZArith NArith Bool List Lia.
From Mysync Require Import Base.Prog Base.ProgFacts Base.Config
  Procs.NodeOps Procs.ActiveNodes Procs.Switchover Procs.OfflineMode Procs.Repair Procs.Optimization Procs.Manager
  Proofs.NodeOpsProofs Proofs.ActiveNodesProofs Proofs.SwitchoverProofs Proofs.DiskGuardProofs Proofs.OfflineProofs Proofs.RepairProofs
  Proofs.OptimizationProofs Proofs.MasterLast Proofs.ManagerProofs Proofs.OutcomeProofs.
Import ListNotations.
Open Scope Z_scope.

Notation NF := (fun (_ : site) (c : call) => nofile c).
(* neither files a switch request nor makes a server writable: the repairs of the tail are tame but for the
   disk guard, and both [nofile] and [wrok] of WritableProofs.v follow from it *)
Definition tame (c : call) : bool := match c with DcsCreate PSwitch _ | Sql _ SSetWritable => false | _ => true end.
Notation TAME := (fun (_ : site) (c : call) => tame c = true).
Lemma nofile_of (b : call -> bool) : (forall v, b (DcsCreate PSwitch v) = false) -> forall c, b c = true -> nofile c.
Proof.
  intros Hb c H Hf. destruct c as [| | |p v| | | | | | | | | | | |]; try exact Hf. destruct p; try exact Hf.
  rewrite Hb in H. discriminate H.
Qed.
Lemma tame_nofile c : tame c = true -> nofile c.
Proof. exact (nofile_of tame (fun _ => eq_refl) c). Qed.
Lemma nf_of_tame {A} (p : prog A) : allcalls TAME p -> allcalls NF p.
Proof. apply allcalls_impl. intros _. exact tame_nofile. Qed.
Lemma nf_of_calm {A} (p : prog A) : allcalls (fun _ c => calmb c = true) p -> allcalls NF p.
Proof. apply allcalls_impl. intros _. exact (nofile_of calmb (fun _ => eq_refl)). Qed.
Lemma rs_ok_tame h c : rs_ok h c -> tame c = true.
Proof. intros H. destruct c as [x st| | |p v| | | | | | | | | | | |]; try reflexivity; [destruct st|destruct p]; first [reflexivity|destruct H]. Qed.
Lemma an_call_tame c : an_call_ok c -> tame c = true.
Proof. intros H. destruct c as [x st| | |p v| | | | | | | | | | | |]; try reflexivity; [destruct st|destruct p]; first [reflexivity|discriminate H|destruct H]. Qed.
Lemma guard_nofile master a c : guard_call_ok master a c -> nofile c.
Proof. intros H. destruct c; first [exact (fun K => K)|destruct H]. Qed.
Lemma file_request_bad e : is_file_request (ev_call e) -> ~ ProgFacts.ev_ok NF e.
Proof. intros Hf K. exact (K Hf). Qed.

(* the leaves of a walk for NF: [nofile c] computes to [False -> False] unless c is a DcsCreate *)
Ltac nfl := first [exact I | exact (fun K : False => K)].

Definition readb (c : call) : bool :=
  match c with
  | Sql _ st => stmt_reads st
  | DcsGet _ | DcsChildren _ | LockAcquire | DcsConnected | Now | FileExists _ | Peek _ => true
  | _ => false
  end.
Definition only_reads (tr : trace) : Prop := Forall (fun e => readb (ev_call e) = true) tr.
Lemma or_of {A} (p : prog A) tr o : allcalls (fun _ c => readb c = true) p -> runs p tr o -> only_reads tr.
Proof. intros H R. exact (allcalls_sound _ p H tr o R). Qed.

Definition probe (c : call) : bool := match c with DcsGet PMaintenance => false | _ => readb c end.
Notation PROBE := (fun (_ : site) (c : call) => probe c = true).
Lemma probe_spec c : probe c = true -> readb c = true /\ c <> DcsGet PMaintenance.
Proof.
  destruct c as [|p| | | | | | | | | | | | | |]; try (intros H; split; [exact H|discriminate]).
  destruct p; first [discriminate | split; [reflexivity|discriminate]].
Qed.
Lemma nf_of_probe {A} (p : prog A) : allcalls PROBE p -> allcalls NF p.
Proof. apply allcalls_impl. intros _. exact (nofile_of probe (fun _ => eq_refl)). Qed.

Lemma pr_lock s : allcalls PROBE (lock_acquire s).
Proof. walk ltac:(first [exact I | reflexivity]). Qed.
Lemma pr_update_hosts m : allcalls PROBE (update_hosts_info m).
Proof. apply update_hosts_calls; reflexivity. Qed.
Lemma pr_cluster_state s hosts : allcalls PROBE (cluster_state_from_db s hosts).
Proof. apply (c_cluster_state probe); [reflexivity|intros h st H; exact H]. Qed.
Lemma pr_cluster_state_dcs s hosts : allcalls PROBE (cluster_state_from_dcs s hosts).
Proof.
  split; [|intros rs; destruct (existsb _ rs); exact I].
  induction hosts as [|[h c] r IH]; [exact I|]. split; [|exact IH].
  split; [reflexivity|]. intros x. destruct x as [[]| | | | | | | | | | | | | |]; exact I.
Qed.
Lemma tame_update_active cfg env mem : allcalls TAME (update_active_nodes cfg env mem).
Proof. exact (allcalls_impl _ _ (fun _ => an_call_tame) _ (update_active_nodes_calls cfg env mem)). Qed.

Lemma repair_loop_calls (P : site -> call -> Prop) cfg env l :
  (forall s c, tame c = true -> P s c) -> (forall a s c, guard_call_ok (re_master env) a c -> P s c) ->
  forall mem, allcalls P (repair_cluster_loop cfg env l mem).
Proof.
  intros Ht Hg. induction l as [|h r IH]; intros mem; cbn [repair_cluster_loop]; [exact I|].
  destruct (assoc h (re_state env)) as [ns|]; [|apply IH]. destruct (negb (ns_ping_ok ns)); [apply IH|].
  destruct (N.eqb_spec h (re_master env)) as [E|NE]; (apply allcalls_bind; [|intros; apply IH]).
  - apply allcalls_bind; [exact (allcalls_impl _ _ (Hg _) _ (guard_allcalls _ _ _ _))|]. intros _. split; [apply Ht; reflexivity|intros; exact I].
  - apply (allcalls_impl _ _ (fun s c H => Ht s c (rs_ok_tame h c H)) _ (repair_slave_calls cfg env h ns mem NE)).
Qed.
Lemma nf_repair_loop cfg env l mem : allcalls NF (repair_cluster_loop cfg env l mem).
Proof. apply repair_loop_calls; [intros _; exact tame_nofile|intros a _; apply guard_nofile]. Qed.

Lemma nf_ensure cs : allcalls NF (ensure_current_master cs).
Proof. unfold ensure_current_master. walk nfl. Qed.
Lemma nf_get_master cs : allcalls NF (get_current_master cs).
Proof. unfold get_current_master. walk ltac:(first [nfl|apply nf_ensure]). Qed.
Lemma nf_leave cfg env m : allcalls NF (leave_maintenance cfg env m).
Proof.
  cbv beta delta [leave_maintenance].
  apply allcalls_bind; [apply nf_of_probe, pr_update_hosts|]. intros [ok m1]. case (negb ok); [exact I|].
  apply allcalls_bind; [apply nf_of_probe, pr_cluster_state|]. intros cs.
  apply allcalls_bind; [apply nf_ensure|]. intros [master| | |]; try exact I; [|apply allcalls_do; [nfl|intros; exact I]].
  apply allcalls_bind; [apply nf_of_probe, pr_cluster_state_dcs|]. intros [csd|]; [|exact I]. cbv beta iota delta [tail_envs].
  apply allcalls_bind; [apply nf_repair_loop|]. intros rm. open_let. intros m2 _.
  apply allcalls_bind; [apply nf_of_probe, pr_cluster_state|]. intros cs2.
  apply allcalls_bind; [apply nf_of_tame, tame_update_active|]. intros ua. open_let. intros m3 _. case (fst ua); [|intros; exact I].
  walk nfl.
Qed.
Lemma nf_handle_maint cfg env m omt master : allcalls NF (handle_maintenance cfg env m omt master).
Proof.
  unfold handle_maintenance. destruct omt as [mt|]; [|exact I]. destruct (mt_light mt).
  - destruct (mt_should_leave mt); [|unfold set_maintenance; walk nfl].
    apply allcalls_bind; [|intros; exact I]. unfold try_leave_maintenance.
    apply allcalls_bind; [apply nf_of_probe, pr_lock|]. intros [|]; [|walk nfl].
    apply allcalls_bind; [apply nf_leave|]. intros r. walk nfl.
  - unfold enter_maintenance, set_maintenance. walk nfl.
Qed.

Lemma finish_true_nofile sw : allcalls NF (finish_switchover sw true).
Proof. unfold finish_switchover, stop_timing. cbn [negb]. walk nfl. Qed.

Theorem handle_switchover_quiet cfg env m cs active master sw : ProgFacts.quiet NF (handle_switchover cfg env m cs active master sw).
Proof.
  unfold handle_switchover. apply quiet_bind; [apply quiet_allcalls; walk nfl|]. intros t.
  assert (FF : ProgFacts.quiet NF (finish_switchover sw false;;; Ret m)).
  { apply quiet_allcalls, allcalls_bind; [apply nf_of_calm, d_finish|intros; exact I]. }
  match goal with |- ProgFacts.quiet _ (if ?c then _ else _) => case c end; [exact FF|].
  case (approve_switchover cfg sw active cs); [intros; exact FF|].
  apply quiet_bind; [apply quiet_allcalls, nf_of_calm, start_calm|]. intros [sw1 [x|]]; [apply quiet_allcalls; exact I|].
  apply quiet_bind.
  { intros q oo R. pose proof (switchover_never_files _ _ _ _ _ _ R) as F. eapply Forall_impl; [|exact F].
    intros e K Hf. unfold is_file_request in Hf. destruct (ev_call e) as [| | |p v| | | | | | | | | | | |] eqn:E; try exact Hf. destruct p; try exact Hf. exact (K v E). }
  intros r. apply quiet_allcalls. case (lock_lost (fst r)); [exact I|]. apply allcalls_do; [nfl|]. intros g.
  apply (unless_not_found g _ _ (allcalls NF)); [exact I|].
  case (fst r); intros; (apply allcalls_bind; [|intros; exact I]); [apply finish_true_nofile|apply nf_of_calm, fail_calm].
Qed.

Definition read_absent (p : dpath) (e : event) : Prop := ev_call e = DcsGet p /\ ev_resp e = RErr ENotFound.

Definition both_absent (tr : trace) : Prop :=
  (exists gm, In gm tr /\ read_absent PMaintenance gm) /\ (exists gs, In gs tr /\ read_absent PSwitch gs).
Lemma both_absent_incl a b : incl a b -> both_absent a -> both_absent b.
Proof. intros H [(gm & Hm & Rm) (gs & Hs & Rs)]. split; [exists gm|exists gs]; (split; [apply H; assumption|assumption]). Qed.

Definition gates_open (cfg : config) (tr : trace) (e : event) : Prop :=
  (exists gm, In gm tr /\ read_absent PMaintenance gm) /\ (exists gs, In gs tr /\ read_absent PSwitch gs) /\
  exists cs master msd active m1 light tr_fd o_fd,
    light = false /\ incl tr_fd tr /\ In e tr_fd /\
    runs (failure_detection cfg cs msd active m1 master light) tr_fd o_fd.

Lemma full_maintenance_leaves cfg env m mt master : mt_light mt = false ->
  rets (fun mh => fst mh <> None) (handle_maintenance cfg env m (Some mt) master).
Proof.
  intros H. unfold handle_maintenance. rewrite H.
  destruct (negb (mt_paused mt)); [apply rets_bind; intros [x|]; discriminate|discriminate].
Qed.
(* the iteration went on past handle_maintenance with light maintenance off: the record [rm] was read as absent *)
Lemma record_absent cfg env m master rm tr mh :
  match rm with RVal (VMaint _) | RErr ENotFound => false | _ => true end = false ->
  runs (handle_maintenance cfg env m match rm with RVal (VMaint mt) => Some mt | _ => None end master) tr (Done mh) -> fst mh = None ->
  match match rm with RVal (VMaint mt) => Some mt | _ => None end with Some mt => mt_light mt | None => false end = false ->
  rm = RErr ENotFound.
Proof.
  intros Erf M1 Emh Hl. destruct rm as [[]| | | | | | | | | | |[]| | |]; try discriminate Erf; [reflexivity|].
  destruct (rets_sound _ _ (full_maintenance_leaves _ _ _ _ _ Hl) _ _ M1 Emh).
Qed.

Lemma after_requests_tail cfg cs csd active m master light :
  rets (fun g => forall c, fst g = GTail c -> tc_light c = light) (after_requests cfg cs csd active m master light).
Proof.
  unfold after_requests. destruct (assoc master csd); [|exact I]. apply rets_bind. intros fd.
  destruct (fst fd); [discriminate|]. destruct (assoc master cs) as [ms|]; [|exact I].
  destruct (negb (ns_ping_ok ms)); [discriminate|]. intros c E. injection E as <-. reflexivity.
Qed.
Lemma after_requests_files cfg cs csd active m master light e : is_file_request (ev_call e) ->
  located e (after_requests cfg cs csd active m master light) (fun tq =>
    exists msd tr_fd o_fd, light = false /\ incl tr_fd tq /\ In e tr_fd /\ runs (failure_detection cfg cs msd active m master light) tr_fd o_fd).
Proof.
  intros Hf. unfold after_requests. destruct (assoc master csd) as [msd|]; [|apply holds_panic; intros []].
  apply (located_bind_l NF e (file_request_bad e Hf)).
  { intros fd. apply quiet_allcalls. walk ltac:(exact I). }
  intros t o R Hin t2. destruct (failure_detection_files _ _ _ _ _ _ _ _ _ R e Hin Hf) as (Hl & _).
  exists msd, t, o. split; [exact Hl|]. split; [apply incl_appl, incl_refl|]. split; [exact Hin|exact R].
Qed.

(* A run of the gates either never files and does not hand over to the tail with light maintenance off, or
   it read both gates as absent in a part [pre] that does not file, and went on into after_requests with
   light maintenance off. *)
Definition gate_run (cfg : config) (tr : trace) (o : outcome (gate_res * mgr_mem)) : Prop :=
  (Forall (ProgFacts.ev_ok NF) tr /\ forall c m', o = Done (GTail c, m') -> tc_light c = true) \/
  exists pre tq cs csd active m2 master, tr = pre ++ tq /\ Forall (ProgFacts.ev_ok NF) pre /\ both_absent pre /\
    runs (after_requests cfg cs csd active m2 master false) tq o.

(* the walk: [pre] is what the iteration did so far *)
Definition spine (cfg : config) (pre : trace) (p : prog (gate_res * mgr_mem)) : Prop :=
  holds p (fun t o => Forall (ProgFacts.ev_ok NF) pre -> gate_run cfg (pre ++ t) o).

Lemma spine_exit cfg pre n mm : spine cfg pre (Ret (GNext n, mm)).
Proof. apply holds_ret. intros Hpre. left. rewrite app_nil_r. split; [exact Hpre|discriminate]. Qed.
Lemma spine_bind cfg pre {A} (p : prog A) f : ProgFacts.quiet NF p ->
  (forall a t1, runs p t1 (Done a) -> spine cfg (pre ++ t1) (f a)) -> spine cfg pre (bind p f).
Proof.
  intros Q H. apply holds_bind.
  - intros t s R Hpre. left. split; [exact (proj2 (Forall_app _ _ _) (conj Hpre (Q t _ R)))|discriminate].
  - intros a t1 R1 t o R2 Hpre. rewrite app_assoc. exact (H a t1 R1 t o R2 (proj2 (Forall_app _ _ _) (conj Hpre (Q t1 _ R1)))).
Qed.
Lemma spine_do cfg pre s c k : nofile c ->
  (forall e0, ev_call e0 = c -> spine cfg (pre ++ [e0]) (k (ev_resp e0))) -> spine cfg pre (Do s c k).
Proof.
  intros Hc H. apply holds_do. intros e0 _ Ec t o R Hpre. change (e0 :: t) with ([e0] ++ t). rewrite app_assoc.
  apply (H e0 Ec t o R). apply Forall_app. split; [exact Hpre|]. constructor; [|constructor]. unfold ProgFacts.ev_ok. rewrite Ec. exact Hc.
Qed.
Lemma spine_after cfg pre cs csd active m2 master light : (light = false -> both_absent pre) ->
  spine cfg pre (after_requests cfg cs csd active m2 master light).
Proof.
  intros B t o R Hpre. destruct light.
  - left. split.
    + apply Forall_app. split; [exact Hpre|]. apply Forall_forall. intros e Hin Hf.
      destruct (after_requests_files _ _ _ _ _ _ _ e Hf t o R Hin) as (_ & _ & _ & K & _). discriminate K.
    + intros c m' ->. exact (rets_sound _ _ (after_requests_tail _ _ _ _ _ _ _) _ _ R c eq_refl).
  - right. exists pre, t, cs, csd, active, m2, master. auto.
Qed.

Lemma decide_spine cfg env m cs csd pre : spine cfg pre (manager_decide cfg env m cs csd).
Proof.
  unfold manager_decide. apply spine_do; [nfl|]. intros em Ecm. set (rm := ev_resp em).
  apply spine_bind; [apply quiet_allcalls; walk nfl|]. intros fe u1 _. case fe; [apply spine_exit|].
  destruct (match rm with RVal (VMaint _) | RErr ENotFound => false | _ => true end) eqn:Erf; [apply spine_exit|].
  match goal with |- spine _ _ (if ?c then _ else _) => case c end; [apply spine_exit|].
  apply spine_bind; [apply quiet_allcalls, nf_get_master|]. intros mr t1 _.
  case mr; [intros master| | |]; try apply spine_exit; [|apply spine_do; [nfl|intros; apply spine_exit]].
  case (negb (mem_host master (map fst (all_hosts m)))); [apply spine_exit|].
  apply spine_do; [nfl|]. intros ea _.
  match goal with |- spine _ _ (match ?x with Some _ => _ | None => _ end) => case x; [intros active|apply spine_exit] end.
  apply spine_bind; [apply quiet_allcalls, nf_handle_maint|]. intros [[nx|] m2] h1 M1; cbn [fst snd]; [apply spine_exit|].
  apply spine_do; [nfl|]. intros es Ecs.
  set (light := match (match rm with RVal (VMaint mt) => Some mt | _ => None end) with Some mt => mt_light mt | None => false end).
  apply (pending_request_cases (ev_resp es) _ _ _ (spine cfg _)); [intros sw|intros Ers|apply spine_exit].
  - destruct (light && is_failover sw) eqn:Epark.
    + apply spine_after. intros Hl. rewrite Hl in Epark. discriminate Epark.
    + apply spine_bind; [apply handle_switchover_quiet|intros; apply spine_exit].
  - apply spine_after. intros Hl. split; [exists em|exists es].
    + split; [do 5 (apply in_or_app; left); apply in_or_app; right; left; reflexivity|]. split; [exact Ecm|exact (record_absent _ _ _ _ _ _ _ Erf M1 eq_refl Hl)].
    + split; [apply in_or_app; right; left; reflexivity|]. split; [exact Ecs|exact Ers].
Qed.

Lemma gates_spine cfg env m : spine cfg [] (manager_gates cfg env m).
Proof.
  unfold manager_gates.
  apply spine_bind; [apply quiet_allcalls; walk nfl|]. intros b t1 _. destruct (negb b); [apply spine_exit|].
  apply spine_bind; [apply quiet_allcalls, nf_of_probe, pr_lock|]. intros l t2 _. destruct (negb l); [apply spine_exit|].
  apply spine_bind; [apply quiet_allcalls, nf_of_probe, pr_update_hosts|]. intros u t3 _.
  apply spine_bind; [apply quiet_allcalls, nf_of_probe, pr_cluster_state|]. intros cs t4 _.
  apply spine_bind; [apply quiet_allcalls, nf_of_probe, pr_cluster_state_dcs|]. intros [csd|] t5 _; [apply decide_spine|apply spine_exit].
Qed.

Lemma gates_run cfg env m tr o : runs (manager_gates cfg env m) tr o -> gate_run cfg tr o.
Proof. intros R. exact (gates_spine cfg env m tr o R (Forall_nil _)). Qed.

Theorem gates_file_only_with_gates_open cfg env m tr o :
  runs (manager_gates cfg env m) tr o ->
  forall e, In e tr -> is_file_request (ev_call e) -> gates_open cfg tr e.
Proof.
  intros R e Hin Hf. pose proof (file_request_bad e Hf) as Hbad.
  destruct (gates_run _ _ _ _ _ R) as [[Q _]|(pre & tq & cs & csd & active & m2 & master & -> & Qp & [Bm Bs] & RA)];
    [destruct (quiet_not_in NF e Hbad tr Q Hin)|].
  apply in_app_or in Hin. destruct Hin as [Hin|Hin]; [destruct (quiet_not_in NF e Hbad pre Qp Hin)|].
  destruct (after_requests_files _ _ _ _ _ _ _ e Hf tq o RA Hin) as (msd & tr_fd & o_fd & Hl & Hincl & Hie & Rfd).
  destruct (both_absent_incl pre (pre ++ tq) (incl_appl tq (incl_refl pre)) (conj Bm Bs)) as [Bm' Bs'].
  split; [exact Bm'|]. split; [exact Bs'|]. exists cs, master, msd, active, m2, false, tr_fd, o_fd.
  split; [reflexivity|]. split; [exact (incl_appr pre Hincl)|]. split; [exact Hie|exact Rfd].
Qed.

Lemma gates_quiet_or_absent cfg env m tr o : runs (manager_gates cfg env m) tr o ->
  both_absent tr \/ (Forall (ProgFacts.ev_ok NF) tr /\ forall c m', o = Done (GTail c, m') -> tc_light c = true).
Proof.
  intros R. destruct (gates_run _ _ _ _ _ R) as [K|(pre & tq & _ & _ & _ & _ & _ & -> & _ & B & _)]; [right; exact K|left].
  exact (both_absent_incl pre _ (incl_appl tq (incl_refl pre)) B).
Qed.

Lemma tame_slave_offline cfg env h ns ms pending : allcalls TAME (repair_slave_offline cfg env h ns ms pending).
Proof.
  cbv beta delta [repair_slave_offline]. case (slave_lag ns); [intros lag|exact I]. open_let. intros broken _.
  case (ns_offline ns && (lag <=? c_offline_disable_lag cfg)); [unfold set_default_repl_settings; walk ltac:(first [exact I | reflexivity])|].
  apply allcalls_bind; [walk ltac:(first [exact I | reflexivity])|]. intros p1. case (negb broken); [exact I|].
  apply allcalls_do; [reflexivity|]. intro r.
  (* the shutdown [cont], shared by the answers about the last one, is walked once *)
  match goal with |- allcalls ?P (let x := ?c in @?b x) => apply (allcalls_let P (fun k => forall last, allcalls P (k last)) c b); cbv beta end.
  { intros last. walk ltac:(first [exact I | reflexivity]). }
  intros cont C. apply (last_shutdown_cases r _ _ _ _ (allcalls TAME)); intros;
    walk ltac:(first [exact I | reflexivity | match goal with |- allcalls _ (cont _) => apply C end]).
Qed.
Lemma tame_offline_loop cfg env ms l : forall pending, allcalls TAME (repair_offline_loop cfg env ms l pending).
Proof.
  induction l as [|h r IH]; intros pending; cbn [repair_offline_loop]; [exact I|].
  destruct (assoc h (oe_state env)) as [ns|]; [|apply IH]. destruct (negb (ns_ping_ok ns)); [apply IH|].
  destruct (N.eqb h (oe_master env)).
  - apply allcalls_bind; [unfold repair_master_offline; walk ltac:(first [exact I | reflexivity])|intros; apply IH].
  - destruct ms as [m|]; [|exact I]. apply allcalls_bind; [apply tame_slave_offline|intros; apply IH].
Qed.

Lemma tame_opt_sync env : allcalls TAME (opt_sync env).
Proof. apply ac_opt_sync; intros; reflexivity. Qed.

(* the tail files a request only in its crash-recovery block: light maintenance off and an approval *)
Theorem tail_files_only_when_approved cfg env m c tr o :
  runs (manager_tail cfg env m c) tr o ->
  forall e, In e tr -> is_file_request (ev_call e) ->
    tc_light c = false /\
    (exists t, ev_call e = DcsCreate PSwitch (auto_request (tc_master c) t)) /\
    exists msd m1 tr_a, assoc (tc_master c) (tc_csd c) = Some msd /\
      runs (approve_failover cfg (tc_cs c) msd (tc_active c) m1 (tc_master c)) tr_a (Done true) /\ incl tr_a tr.
Proof.
  intros R e Hin Hf. revert tr o R Hin. refine (located_runs e _ _ _). pose proof (file_request_bad e Hf) as Hbad.
  unfold manager_tail, tail_envs, repair_offline_mode, repair_cluster.
  apply (located_bind NF e Hbad); [apply quiet_allcalls, nf_of_tame, tame_offline_loop|]. intros _ t1 _.
  apply (located_bind NF e Hbad); [apply quiet_allcalls, nf_repair_loop|]. intros rm t2 _.
  destruct (assoc (tc_master c) (tc_csd c)) as [msd|]; [|apply holds_panic; intros []].
  (* what follows the filing block never files *)
  apply (located_bind_l NF e Hbad).
  { intros [|]; apply quiet_allcalls; [exact I|]. apply nf_of_tame. walk ltac:(first [exact I | reflexivity | apply tame_update_active | apply tame_opt_sync]). }
  lif; [|apply located_ret]. destruct (tc_light c); [apply located_ret|].
  apply (located_bind NF e Hbad); [apply quiet_allcalls, nf_approve|]. intros ap a1 A1. destruct ap; [|apply located_ret].
  apply (located_bind_l NF e Hbad); [intros; apply quiet_allcalls; exact I|].
  intros i1 o1 I1 Hin x y. split; [reflexivity|]. split; [exact (issue_failover_events _ _ _ I1 e Hin Hf)|].
  exists msd, (with_repair m rm), a1. split; [reflexivity|]. split; [exact A1|]. apply incl_appr, incl_appr, incl_appl, incl_appl, incl_refl.
Qed.

(* the whole iteration: a request is filed only with the maintenance record and the pending-request key
   both read as absent in the same iteration *)
Theorem iteration_files_only_with_gates_open cfg env m tr o :
  runs (state_manager cfg env m) tr o ->
  forall e, In e tr -> is_file_request (ev_call e) ->
    (exists gm, In gm tr /\ read_absent PMaintenance gm) /\ (exists gs, In gs tr /\ read_absent PSwitch gs).
Proof.
  unfold state_manager. intros H e Hin Hf. pose proof (file_request_bad e Hf) as Hbad.
  destruct (runs_bind_inv _ _ _ _ H) as [(t1 & t2 & [g mg] & R1 & R2 & ->)|(s & R1 & ->)].
  2:{ destruct (gates_quiet_or_absent _ _ _ _ _ R1) as [B|[Q _]]; [exact B|destruct (quiet_not_in NF e Hbad tr Q Hin)]. }
  destruct (gates_quiet_or_absent _ _ _ _ _ R1) as [B|[Q K]]; [exact (both_absent_incl t1 _ (incl_appl t2 (incl_refl t1)) B)|exfalso].
  apply in_app_or in Hin. destruct Hin as [Hin|Hin]; [exact (quiet_not_in NF e Hbad t1 Q Hin)|].
  cbn [fst snd] in R2. destruct g as [n|c]; [destruct R2 as [-> _]; destruct Hin|].
  (* the tail filed, so it ran with light maintenance off *)
  enough (L : tc_light c = false) by (rewrite (K c mg eq_refl) in L; discriminate L).
  clear H. revert t2 o R2 Hin. refine (located_runs e _ _ _). apply (located_bind_l NF e Hbad); [intros; apply quiet_allcalls; exact I|].
  intros t o' R Hi _. exact (proj1 (tail_files_only_when_approved _ _ _ _ _ _ R e Hi Hf)).
Qed.

(* C09: the manager iteration under acknowledged full maintenance.
   A process that runs stateManager (e.g. it was restarted) while full maintenance is acknowledged only READS:
   it refreshes the registry, looks at the servers and the health records, reads the maintenance record - and goes
   to the paused state.  (Before the repairs b339185 / 38205c1 in /repo the master key was looked up first and a
   missing or unreadable key was re-learned and WRITTEN before the maintenance record was looked at - see DESIGN.md, C09.) *)
Definition acknowledged (tr : trace) : Prop :=
  forall e, In e tr -> ev_call e = DcsGet PMaintenance -> exists mt, ev_resp e = RVal (VMaint mt) /\ mt_light mt = false /\ mt_paused mt = true.
Definition frozen (tr : trace) (o : outcome (gate_res * mgr_mem)) : Prop :=
  only_reads tr /\ (forall c m', o <> Done (GTail c, m')) /\
  (forall e, In e tr -> ev_call e = DcsGet PMaintenance -> exists m', o = Done (GNext NxMaintenance, m')).

Lemma probing_trace t : Forall (ProgFacts.ev_ok PROBE) t -> only_reads t /\ forall e, In e t -> ev_call e <> DcsGet PMaintenance.
Proof.
  intros F. split; [exact (Forall_impl _ (fun e H => proj1 (probe_spec _ H)) F)|].
  intros e Hi. rewrite Forall_forall in F. exact (proj2 (probe_spec _ (F e Hi))).
Qed.

Lemma frozen_leave n mm : holds (Ret (GNext n, mm)) (fun t o => acknowledged t -> frozen t o).
Proof. apply holds_ret. intros _. split; [constructor|]. split; [discriminate|intros e []]. Qed.
Lemma frozen_probe {A} (p : prog A) (f : A -> prog (gate_res * mgr_mem)) : allcalls PROBE p ->
  (forall a, holds (f a) (fun t o => acknowledged t -> frozen t o)) -> holds (bind p f) (fun t o => acknowledged t -> frozen t o).
Proof.
  intros Hp Hf. apply holds_bind.
  - intros t s R _. destruct (probing_trace t (allcalls_sound _ p Hp t _ R)) as [Hr Hn].
    split; [exact Hr|]. split; [discriminate|]. intros e Hi He. destruct (Hn e Hi He).
  - intros a t1 R1 t o R2 Hack. destruct (probing_trace t1 (allcalls_sound _ p Hp t1 _ R1)) as [Hr Hn].
    destruct (Hf a t o R2 (fun e Hi => Hack e (in_or_app _ _ _ (or_intror Hi)))) as (A1 & B1 & C1).
    split; [exact (proj2 (Forall_app _ _ _) (conj Hr A1))|]. split; [exact B1|].
    intros e Hi He. apply in_app_or in Hi. destruct Hi as [Hi|Hi]; [destruct (Hn e Hi He)|exact (C1 e Hi He)].
Qed.

(* the maintenance record is the first thing manager_decide reads, and an acknowledged full maintenance ends the iteration there *)
Lemma decide_acknowledged cfg env m cs csd : exists k, manager_decide cfg env m cs csd = Do 425 (DcsGet PMaintenance) k /\
  forall mt, mt_light mt = false -> mt_paused mt = true -> k (RVal (VMaint mt)) = Ret (GNext NxMaintenance, m).
Proof. eexists. split; [reflexivity|]. intros mt Hl Hp. cbn [bind]. rewrite Hl, Hp. reflexivity. Qed.

Theorem manager_frozen_when_acknowledged cfg env m tr o :
  runs (manager_gates cfg env m) tr o ->
  (forall e, In e tr -> ev_call e = DcsGet PMaintenance ->
     exists mt, ev_resp e = RVal (VMaint mt) /\ mt_light mt = false /\ mt_paused mt = true) ->
  only_reads tr /\ (forall c m', o <> Done (GTail c, m')) /\
  (forall e, In e tr -> ev_call e = DcsGet PMaintenance -> exists m', o = Done (GNext NxMaintenance, m')).
Proof.
  revert tr o. change (holds (manager_gates cfg env m) (fun tr o => acknowledged tr -> frozen tr o)). unfold manager_gates.
  apply frozen_probe; [split; [reflexivity|intros; exact I]|]. intros b. destruct (negb b); [apply frozen_leave|].
  apply frozen_probe; [apply pr_lock|]. intros l. destruct (negb l); [apply frozen_leave|].
  apply frozen_probe; [apply pr_update_hosts|]. intros u.
  apply frozen_probe; [apply pr_cluster_state|]. intros cs.
  apply frozen_probe; [apply pr_cluster_state_dcs|]. intros [csd|]; [|apply frozen_leave].
  destruct (decide_acknowledged cfg env (snd u) cs csd) as (k & -> & Hk). apply holds_do. intros em _ Ecm t o R Hack.
  destruct (Hack em (or_introl eq_refl) Ecm) as (mt & Er & Hl & Hp). rewrite Er, (Hk mt Hl Hp) in R. destruct R as [-> ->].
  split; [constructor; [rewrite Ecm; reflexivity|constructor]|]. split; [discriminate|]. intros e _ _. eexists. reflexivity.
Qed.
