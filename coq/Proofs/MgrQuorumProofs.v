(* C16 "cascade replicas are never counted towards quorum": the manager's own quorum (checkQuorum) is a function of the
   entries of the HA hosts alone. *)
From Coq Require Import ZArith NArith Bool List Lia.
From Mysync Require Import Base.Prog Procs.ActiveNodes Procs.MgrQuorum.
Import ListNotations.
Open Scope Z_scope.

Lemma quorum_counts_ext ha : forall db dcs db' dcs' w v,
  (forall h, In h ha -> assoc h db = assoc h db' /\ assoc h dcs = assoc h dcs') ->
  quorum_counts ha db dcs w v = quorum_counts ha db' dcs' w v.
Proof.
  induction ha as [|h r IH]; intros db dcs db' dcs' w v H; [reflexivity|]. cbn [quorum_counts].
  destruct (H h (or_introl eq_refl)) as [E1 E2]. rewrite <- E1, <- E2.
  destruct (assoc h db) as [sdb|]; [|reflexivity]. destruct (assoc h dcs) as [sd|]; [|reflexivity].
  destruct (ns_ping_ok sd); apply IH; intros h' Hin; apply H; right; exact Hin.
Qed.

(* whatever the two views say about hosts that are not HA hosts (cascade replicas, strangers) has no influence *)
Theorem manager_quorum_ignores_non_ha ha db dcs db' dcs' :
  (forall h, In h ha -> assoc h db = assoc h db' /\ assoc h dcs = assoc h dcs') ->
  manager_lost_quorum ha db dcs = manager_lost_quorum ha db' dcs'.
Proof. intros H. unfold manager_lost_quorum. rewrite (quorum_counts_ext ha db dcs db' dcs' 0 0 H). reflexivity. Qed.

Lemma quorum_counts_bounds ha : forall db dcs w v, 0 <= v <= w ->
  let '(w', v') := quorum_counts ha db dcs w v in 0 <= v' <= w' /\ w' <= w + Z.of_nat (length ha).
Proof.
  induction ha as [|h r IH]; intros db dcs w v Hb; cbn [quorum_counts length]; [lia|].
  destruct (assoc h db) as [sdb|]; [|lia]. destruct (assoc h dcs) as [sd|]; [|lia].
  destruct (ns_ping_ok sd).
  - destruct (ns_ping_ok sdb).
    + specialize (IH db dcs (w + 1) (v + 1) ltac:(lia)). destruct (quorum_counts r db dcs (w + 1) (v + 1)). lia.
    + specialize (IH db dcs (w + 1) v ltac:(lia)). destruct (quorum_counts r db dcs (w + 1) v). lia.
  - specialize (IH db dcs w v Hb). destruct (quorum_counts r db dcs w v). lia.
Qed.

(* the counts never exceed the number of HA hosts: no other host can add to them *)
Theorem manager_quorum_counts_at_most_ha ha db dcs :
  let '(w, v) := quorum_counts ha db dcs 0 0 in 0 <= v <= w /\ w <= Z.of_nat (length ha).
Proof. pose proof (quorum_counts_bounds ha db dcs 0 0 ltac:(lia)) as H. destruct (quorum_counts ha db dcs 0 0). lia. Qed.

(* The HA counts of util.go (quorum of alive replicas in the list, "every other HA node still replicates", the
   dubious hosts): an entry that says "cascade replica" contributes nothing to any of them *)
From Mysync Require Import Base.Config Procs.NodeOps Procs.Switchover Procs.Repair Procs.Manager.

(* the filter of count_alive_ha_slaves_within (Procs/Manager.v) *)
Definition counted (cs : list (host * node_state)) (h : host) : bool :=
  match assoc h cs with
  | Some ns => ns_ping_ok ns && negb (ns_is_cascade ns) && match ns_slave ns with Some _ => true | None => false end
  | None => false
  end.
Lemma count_within_cons h nodes cs :
  count_alive_ha_slaves_within (h :: nodes) cs = (if counted cs h then 1 else 0) + count_alive_ha_slaves_within nodes cs.
Proof.
  unfold count_alive_ha_slaves_within. cbn [filter]. fold (counted cs h). destruct (counted cs h); [cbn [length]|]; lia.
Qed.
Lemma not_counted h nodes cs : counted cs h = false ->
  count_alive_ha_slaves_within (h :: nodes) cs = count_alive_ha_slaves_within nodes cs.
Proof. intros H. rewrite count_within_cons, H. reflexivity. Qed.

Theorem cascade_entries_contribute_nothing h ns cs nodes :
  ns_is_cascade ns = true ->
  count_ha_nodes ((h, ns) :: cs) = count_ha_nodes cs /\
  count_running_ha_slaves ((h, ns) :: cs) = count_running_ha_slaves cs /\
  dubious_ha_hosts ((h, ns) :: cs) = dubious_ha_hosts cs /\
  count_alive_ha_slaves_within (h :: nodes) ((h, ns) :: cs) = count_alive_ha_slaves_within nodes ((h, ns) :: cs).
Proof.
  intros Hc. unfold count_ha_nodes, count_running_ha_slaves, dubious_ha_hosts. cbn [filter]. rewrite Hc, !andb_false_r.
  repeat split. apply not_counted. unfold counted. cbn [assoc]. rewrite N.eqb_refl, Hc, andb_false_r. reflexivity.
Qed.

(* C05, the quorum gate: a replica that did not answer the manager's ping - refused, timed out or answered with a "dubious"
   error, whatever its own health record says - contributes nothing to the count of alive replicas in the published list *)
Lemma unreachable_not_counted_within h nodes cs ns :
  assoc h cs = Some ns -> ns_ping_ok ns = false ->
  count_alive_ha_slaves_within (h :: nodes) cs = count_alive_ha_slaves_within nodes cs.
Proof. intros Ha Hp. apply not_counted. unfold counted. rewrite Ha, Hp. reflexivity. Qed.
(* ... nor does a host the manager has no state for, or one without a replication channel (a master) *)
Lemma unknown_or_channelless_not_counted h nodes cs :
  (assoc h cs = None \/ exists ns, assoc h cs = Some ns /\ ns_slave ns = None) ->
  count_alive_ha_slaves_within (h :: nodes) cs = count_alive_ha_slaves_within nodes cs.
Proof.
  intros H. apply not_counted. unfold counted. destruct H as [->|(ns & -> & ->)]; [reflexivity|apply andb_false_r].
Qed.
Lemma count_within_le nodes cs : (0 <= count_alive_ha_slaves_within nodes cs <= Z.of_nat (length nodes))%Z.
Proof.
  induction nodes as [|h nodes IH]; [cbn; lia|]. rewrite count_within_cons. cbn [length]. destruct (counted cs h); lia.
Qed.
