From Coq Require Import ZArith NArith Bool List.
From Mysync Require Import Dcs.ZkModel.
Import ListNotations.
Open Scope Z_scope.

Lemma path_eqb_eq a : forall b, path_eqb a b = true <-> a = b.
Proof.
  induction a as [|x a IH]; destruct b as [|y b]; cbn; split; intros H; try reflexivity; try discriminate.
  - apply andb_true_iff in H. destruct H as [H1 H2]. apply N.eqb_eq in H1. apply IH in H2. subst. reflexivity.
  - inversion H; subst. rewrite N.eqb_refl. cbn. apply IH. reflexivity.
Qed.
Lemma path_eqb_refl a : path_eqb a a = true. Proof. apply path_eqb_eq. reflexivity. Qed.
Lemma path_eqb_neq a b : a <> b -> path_eqb a b = false.
Proof. intros H. destruct (path_eqb a b) eqn:E; [apply path_eqb_eq in E; contradiction|reflexivity]. Qed.
Lemma path_eqb_spec a b : reflect (a = b) (path_eqb a b).
Proof. apply iff_reflect. symmetry. apply path_eqb_eq. Qed.
Lemma path_eqb_sym a b : path_eqb a b = path_eqb b a.
Proof. destruct (path_eqb_spec a b) as [->|N]; symmetry; [apply path_eqb_refl|apply path_eqb_neq; congruence]. Qed.

Lemma tget_tdel t p q : tget (tdel t p) q = if path_eqb q p then None else tget t q.
Proof.
  induction t as [|[x n] r IH]; cbn; [destruct (path_eqb q p); reflexivity|].
  destruct (path_eqb_spec p x) as [<-|Nx]; cbn; rewrite IH; [destruct (path_eqb q p); reflexivity|].
  destruct (path_eqb_spec q x) as [->|_]; [rewrite (path_eqb_neq x p) by congruence|]; reflexivity.
Qed.
Lemma tget_tput t p n q : tget (tput t p n) q = if path_eqb q p then Some n else tget t q.
Proof. unfold tput. cbn. rewrite tget_tdel. destruct (path_eqb q p); reflexivity. Qed.

Fixpoint uniq (t : ztree) : Prop := match t with [] => True | (q, _) :: r => tget r q = None /\ uniq r end.
Lemma uniq_tdel t p : uniq t -> uniq (tdel t p).
Proof.
  induction t as [|[q n] r IH]; [exact (fun x => x)|]. cbn. intros [H1 H2]. destruct (path_eqb p q); [apply IH, H2|].
  cbn. split; [|apply IH, H2]. rewrite tget_tdel, H1. destruct (path_eqb q p); reflexivity.
Qed.
Lemma uniq_tput t p n : uniq t -> uniq (tput t p n).
Proof. intros H. split; [rewrite tget_tdel, path_eqb_refl; reflexivity|apply uniq_tdel, H]. Qed.
Lemma tget_none_filter (f : path * znode -> bool) t q : tget t q = None -> tget (filter f t) q = None.
Proof.
  induction t as [|[x n] r IH]; [reflexivity|]. cbn. destruct (path_eqb q x) eqn:E; [discriminate|]. intros H.
  destruct (f (x, n)); [cbn; rewrite E|]; apply IH, H.
Qed.
Lemma uniq_filter f t : uniq t -> uniq (filter f t).
Proof.
  induction t as [|[q n] r IH]; [exact (fun x => x)|]. cbn. intros [H1 H2]. destruct (f (q, n)); [|apply IH, H2].
  split; [apply tget_none_filter, H1|apply IH, H2].
Qed.
Lemma tget_filter (g : znode -> bool) t p : uniq t ->
  tget (filter (fun '(_, n) => g n) t) p = match tget t p with Some n => if g n then Some n else None | None => None end.
Proof.
  induction t as [|[q n] r IH]; [reflexivity|]. cbn. intros [H1 H2]. destruct (path_eqb_spec p q) as [->|N].
  - destruct (g n); [cbn; rewrite path_eqb_refl; reflexivity|apply tget_none_filter, H1].
  - destruct (g n); [cbn; rewrite (path_eqb_neq p q N)|]; apply IH, H2.
Qed.

Definition texists (st : zstate) (p : path) : Prop := p = [] \/ tget (zs_tree st) p <> None.

Lemma srv_create_cases t q m t' r : srv_create t q m = (t', r) ->
  (t' = t /\ r = ZExists /\ (q = [] \/ tget t q <> None)) \/
  (q <> [] /\ tget t q = None /\ ((t' = t /\ r = ZErr) \/ (t' = tput t q m /\ r = ZOk))).
Proof.
  intros E. apply (f_equal fst) in E as Et. apply (f_equal snd) in E as Er. cbn [fst snd] in Et, Er. subst t' r. clear E. unfold srv_create.
  destruct q as [|x l]; [left; auto|]. destruct (tget t (x :: l)); [left; split; [reflexivity|split; [reflexivity|right; discriminate]]|].
  right. split; [discriminate|]. split; [reflexivity|].
  destruct (parent_of (x :: l)) as [|y k]; [right; split; reflexivity|].
  destruct (tget t (y :: k)) as [pn|]; [destruct (zn_eph pn)|]; [left|right|left]; split; reflexivity.
Qed.

Theorem create_exists_iff st c rp v eph :
  snd (zstep st (OCreate c rp v eph)) = ZExists <-> texists st (normalize rp).
Proof.
  cbn [zstep]. destruct (srv_create _ _ _) as [t' r] eqn:E. apply srv_create_cases in E. cbn [snd]. unfold texists.
  destruct E as [(_ & -> & H)|(Hq & Hn & [[_ ->]|[_ ->]])]; (split; [try discriminate; intros _; exact H|try reflexivity; tauto]).
Qed.

(* get distinguishes a missing key from an unparsable one *)
Theorem get_missing_iff st c rp : normalize rp <> [] ->
  (snd (zstep st (OGet c rp)) = ZNotFound <-> tget (zs_tree st) (normalize rp) = None).
Proof.
  intros Hn. cbn [zstep]. destruct (normalize rp) as [|x r] eqn:E; [contradiction|].
  destruct (tget (zs_tree st) (x :: r)) as [n|]; cbn; split; try reflexivity; try discriminate.
  destruct (zn_val n); discriminate.
Qed.
Theorem get_malformed_iff st c rp : normalize rp <> [] ->
  (snd (zstep st (OGet c rp)) = ZMalformed <->
   exists n, tget (zs_tree st) (normalize rp) = Some n /\ (zn_val n = ZGarbage \/ zn_val n = ZEmpty)).
Proof.
  intros Hn. cbn [zstep]. destruct (normalize rp) as [|x r] eqn:E; [contradiction|].
  destruct (tget (zs_tree st) (x :: r)) as [n|]; cbn; split.
  - intros H. exists n. split; [reflexivity|]. destruct (zn_val n); try discriminate; auto.
  - intros (n' & [= <-] & [H|H]); rewrite H; reflexivity.
  - discriminate.
  - intros (n' & E' & _). discriminate.
Qed.
Theorem get_changes_nothing st c rp : fst (zstep st (OGet c rp)) = st.
Proof. cbn [zstep]. destruct (normalize rp); [reflexivity|]. destruct (tget _ _); reflexivity. Qed.

(* delete is idempotent: deleting a missing key succeeds and changes nothing; after a successful delete the key is missing *)
Theorem delete_missing st c rp : normalize rp <> [] -> tget (zs_tree st) (normalize rp) = None ->
  zstep st (ODelete c rp) = (st, ZOk).
Proof. intros Hn H. cbn [zstep]. destruct (normalize rp) as [|x r]; [contradiction|]. rewrite H. reflexivity. Qed.
Theorem delete_then_missing st c rp : snd (zstep st (ODelete c rp)) = ZOk ->
  normalize rp <> [] /\ tget (zs_tree (fst (zstep st (ODelete c rp)))) (normalize rp) = None.
Proof.
  cbn [zstep]. destruct (normalize rp) as [|x r] eqn:E; [cbn; discriminate|].
  destruct (tget (zs_tree st) (x :: r)) eqn:Et; [|cbn; intros _; split; [discriminate|exact Et]].
  destruct (has_children _ _); [cbn; discriminate|]. cbn. intros _. split; [discriminate|]. rewrite tget_tdel, path_eqb_refl. reflexivity.
Qed.

Theorem children_missing_iff st c rp : normalize rp <> [] ->
  (snd (zstep st (OChildren c rp)) = ZNotFound <-> tget (zs_tree st) (normalize rp) = None).
Proof.
  intros Hn. cbn [zstep]. destruct (normalize rp) as [|x r]; [contradiction|].
  destruct (tget (zs_tree st) (x :: r)); cbn; split; try reflexivity; discriminate.
Qed.

Lemma normalize_app a b : normalize (a ++ b) = normalize a ++ normalize b.
Proof. unfold normalize. apply flat_map_app. Qed.
Theorem redundant_slashes_ignored a b : normalize (a ++ None :: b) = normalize (a ++ b).
Proof. rewrite !normalize_app. reflexivity. Qed.
Definition op_with_path (o : zop) (rp : raw_path) : zop :=
  match o with
  | OCreate c _ v e => OCreate c rp v e | OSet c _ v e => OSet c rp v e | OGet c _ => OGet c rp | ODelete c _ => ODelete c rp
  | OChildren c _ => OChildren c rp | OAcquire c _ => OAcquire c rp | ORelease c _ => ORelease c rp | ORawGarbage _ => ORawGarbage rp
  | o => o
  end.
Theorem same_key_same_behaviour st o r1 r2 : normalize r1 = normalize r2 -> zstep st (op_with_path o r1) = zstep st (op_with_path o r2).
Proof. intros H. destruct o; cbn [op_with_path]; try reflexivity; unfold zstep; rewrite H; reflexivity. Qed.

(* set on an existing key overwrites the value and keeps the kind of the key; an ephemeral set on a plain key is refused *)
Theorem set_existing st c rp v eph n : normalize rp <> [] -> tget (zs_tree st) (normalize rp) = Some n ->
  (eph = true /\ zn_eph n = None -> zstep st (OSet c rp v eph) = (st, ZErr)) /\
  (~ (eph = true /\ zn_eph n = None) ->
     snd (zstep st (OSet c rp v eph)) = ZOk /\
     tget (zs_tree (fst (zstep st (OSet c rp v eph)))) (normalize rp) = Some {| zn_val := ZJson v; zn_eph := zn_eph n |}).
Proof.
  intros Hn Ht. cbn [zstep]. destruct (normalize rp) as [|x r] eqn:E; [contradiction|]. rewrite Ht. split.
  - intros [-> He]. rewrite He. reflexivity.
  - intros Hno. destruct eph; [destruct (zn_eph n) eqn:Ee; [|exfalso; apply Hno; auto]|]; cbn [andb fst snd zs_tree with_tree];
      rewrite tget_tput, path_eqb_refl; split; reflexivity.
Qed.

(* a plain key is never silently turned into an ephemeral one: an ephemeral set is refused (set_existing), a plain
   set keeps the kind (set_existing), and create on an existing key changes nothing *)
Theorem create_existing_unchanged st c rp v eph : texists st (normalize rp) -> zstep st (OCreate c rp v eph) = (st, ZExists).
Proof.
  intros H. cbn [zstep]. destruct (srv_create _ _ _) as [t' r] eqn:E. apply srv_create_cases in E.
  destruct E as [(-> & -> & _)|(Hq & Hn & _)]; [destruct st; reflexivity|destruct H; contradiction].
Qed.

(* ephemeral keys disappear with the session that created them; everything else stays *)
Theorem expire_removes_ephemerals st c : uniq (zs_tree st) ->
  let s := zc_session (cget (zs_clients st) c) in
  let st' := fst (zstep st (OExpire c)) in
  forall p, tget (zs_tree st') p =
            match tget (zs_tree st) p with
            | Some n => match zn_eph n with Some s' => if N.eqb s' s then None else Some n | None => Some n end
            | None => None
            end.
Proof.
  intros Hu s st' p. subst st'. cbn [zstep fst zs_tree].
  rewrite (tget_filter (fun n => match zn_eph n with Some s0 => negb (N.eqb s0 (zc_session (cget (zs_clients st) c))) | None => true end)) by exact Hu.
  destruct (tget (zs_tree st) p) as [n|]; [|reflexivity]. destruct (zn_eph n) as [s'|]; [|reflexivity]. subst s. destruct (N.eqb s' _); reflexivity.
Qed.

Lemma let_pair {A B C} (x : A * B) (f : A -> B -> C) : (let '(a, b) := x in f a b) = f (fst x) (snd x).
Proof. destruct x; reflexivity. Qed.

Lemma cache_get_del l p q : cache_get (cache_del l p) q = if path_eqb q p then None else cache_get l q.
Proof.
  induction l as [|[x n] r IH]; cbn; [destruct (path_eqb q p); reflexivity|].
  destruct (path_eqb_spec p x) as [<-|Nx]; cbn; fold (cache_del r p); rewrite IH; [destruct (path_eqb q p); reflexivity|].
  destruct (path_eqb_spec q x) as [->|_]; [rewrite (path_eqb_neq x p) by congruence|]; reflexivity.
Qed.
Lemma cget_cput l c v d : cget (cput l c v) d = if N.eqb d c then v else cget l d.
Proof.
  induction l as [|[k w] r IH]; cbn; [destruct (N.eqb d c); reflexivity|].
  destruct (N.eqb_spec c k) as [<-|Nk]; cbn; [destruct (N.eqb d c); reflexivity|].
  rewrite IH. destruct (N.eqb_spec d k) as [->|_]; [rewrite (proj2 (N.eqb_neq k c)) by congruence|]; reflexivity.
Qed.
Lemma cget_cput_same l c v : cget (cput l c v) c = v.
Proof. rewrite cget_cput, N.eqb_refl. reflexivity. Qed.

Record lock_inv (cs : list N) (p : path) (st : zstate) : Prop := {
  li_uniq : uniq (zs_tree st);
  li_sessions : forall c1 c2, In c1 cs -> In c2 cs -> c1 <> c2 ->
                zc_session (cget (zs_clients st) c1) <> zc_session (cget (zs_clients st) c2);
  li_fresh : forall c, In c cs -> N.lt (zc_session (cget (zs_clients st) c)) (zs_next st);
  li_owner : forall q n c, tget (zs_tree st) q = Some n -> zn_val n = ZOwner c -> In c cs /\ zn_eph n = Some (zc_session (cget (zs_clients st) c));
  li_cache : forall c t0, In c cs -> cache_get (zc_cache (cget (zs_clients st) c)) p = Some t0 ->
             exists n, tget (zs_tree st) p = Some n /\ zn_val n = ZOwner c }.

Definition op_client (o : zop) : option N :=
  match o with
  | OCreate c _ _ _ | OSet c _ _ _ | OGet c _ | ODelete c _ | OChildren c _ | OAcquire c _ | ORelease c _ | OExpire c | ODrop c => Some c
  | _ => None
  end.
(* mysync touches a lock path only through AcquireLock / ReleaseLock (and reads) *)
Definition wf_op (cs : list N) (p : path) (o : zop) : Prop :=
  match op_client o with Some c => In c cs | None => True end /\
  match o with
  | OCreate _ rp _ _ | OSet _ rp _ _ | ODelete _ rp | ORawGarbage rp => normalize rp <> p
  | _ => True
  end.

Lemma inv_tree_frame cs p st t' :
  lock_inv cs p st -> uniq t' ->
  (forall q n, tget (zs_tree st) q = Some n -> q = p \/ zn_val n <> ZEmpty \/ True -> tget t' q = Some n \/ q <> p) ->
  True.
Proof. intros; exact I. Qed.

(* What a change of the tree must respect: the node at p stays, and every node of the new tree is an old one or
   satisfies ok (for a data operation: is no lock node; for a granted acquire: is the client's own). *)
Section Frame.
Variables (ok : znode -> Prop) (p : path).
Definition frame (t t' : ztree) : Prop :=
  uniq t' /\ (forall n, tget t p = Some n -> tget t' p = Some n) /\ (forall q n, tget t' q = Some n -> tget t q = Some n \/ ok n).

Lemma frame_refl t : uniq t -> frame t t.
Proof. intros U. split; [exact U|]. split; [trivial|]. intros q n H. left. exact H. Qed.
Lemma frame_trans t t1 t2 : frame t t1 -> frame t1 t2 -> frame t t2.
Proof.
  intros (_ & K1 & N1) (U & K2 & N2). split; [exact U|]. split; [intros n H; apply K2, K1, H|].
  intros q n H. destruct (N2 q n H) as [H1|H1]; [apply N1, H1|right; exact H1].
Qed.
Lemma frame_tput t q m : uniq t -> (q = p -> tget t p = None) -> ok m -> frame t (tput t q m).
Proof.
  intros U Hq Hm. split; [apply uniq_tput, U|]. split.
  - intros n H. rewrite tget_tput. destruct (path_eqb_spec p q) as [E|_]; [|exact H]. rewrite Hq in H by congruence. discriminate.
  - intros x n. rewrite tget_tput. destruct (path_eqb x q); [intros [= <-]; right; exact Hm|left; assumption].
Qed.
Lemma frame_tdel t q : uniq t -> q <> p -> frame t (tdel t q).
Proof.
  intros U Hq. split; [apply uniq_tdel, U|]. split.
  - intros n H. rewrite tget_tdel, path_eqb_neq by congruence. exact H.
  - intros x n. rewrite tget_tdel. destruct (path_eqb x q); [discriminate|left; assumption].
Qed.
Lemma frame_srv_create t q m : uniq t -> ok m -> frame t (fst (srv_create t q m)).
Proof.
  intros U Hm. destruct (srv_create t q m) as [t' r] eqn:E. apply srv_create_cases in E. cbn [fst].
  destruct E as [(-> & _)|(_ & Hq & [[-> _]|[-> _]])]; try (apply frame_refl, U).
  apply frame_tput; [exact U|intros <-; exact Hq|exact Hm].
Qed.
End Frame.

Definition mp_step := (fun '(t, ok) (q : path) =>
     if negb ok then (t, ok) else
     match tget t q with
     | Some _ => (t, true)
     | None => let '(t', r) := srv_create t q {| zn_val := ZEmpty; zn_eph := None |} in (t', match r with ZOk => true | _ => false end)
     end) : ztree * bool -> path -> ztree * bool.
Lemma make_path_ind (P : ztree -> Prop) :
  (forall t q, P t -> P (fst (srv_create t q {| zn_val := ZEmpty; zn_eph := None |}))) ->
  forall t p, P t -> P (fst (make_path t p)).
Proof.
  intros H t p. change (make_path t p) with (fold_left mp_step (prefixes p) (t, true)). generalize true. revert t.
  induction (prefixes p) as [|q l IH]; intros t ok Ht; [exact Ht|]. cbn [fold_left mp_step].
  destruct (negb ok); [apply IH, Ht|]. destruct (tget t q); [apply IH, Ht|].
  specialize (H t q Ht). destruct (srv_create t q _). apply IH, H.
Qed.
Lemma frame_make_path (ok : znode -> Prop) p t l : uniq t -> ok {| zn_val := ZEmpty; zn_eph := None |} -> frame ok p t (fst (make_path t l)).
Proof.
  intros U Hm. apply (make_path_ind (frame ok p t)); [|apply frame_refl, U].
  intros t1 q F. apply (frame_trans ok p t t1); [exact F|]. apply frame_srv_create; [apply F|exact Hm].
Qed.

Lemma inv_frame cs p st (ok : znode -> Prop) t' : lock_inv cs p st -> frame ok p (zs_tree st) t' ->
  (forall n c, ok n -> zn_val n = ZOwner c -> In c cs /\ zn_eph n = Some (zc_session (cget (zs_clients st) c))) ->
  lock_inv cs p (with_tree st t').
Proof.
  intros [I1 I2 I3 I4 I5] (U & K & N) Hok. constructor; cbn [with_tree zs_tree zs_clients zs_next]; [exact U|exact I2|exact I3| |].
  - intros q n c Hq Hv. destruct (N q n Hq) as [H|H]; [apply (I4 q n c H Hv)|apply (Hok n c H Hv)].
  - intros c t0 Hc Hcache. destruct (I5 c t0 Hc Hcache) as (n & H1 & H2). exists n. split; [apply K, H1|exact H2].
Qed.
(* a data operation away from p: what it adds is JSON, empty or garbage *)
Definition plain (n : znode) : Prop := forall c, zn_val n <> ZOwner c.
Lemma inv_plain_frame cs p st t' : lock_inv cs p st -> frame plain p (zs_tree st) t' -> lock_inv cs p (with_tree st t').
Proof. intros I F. apply (inv_frame cs p st plain t' I F). intros n c H E. destruct (H c E). Qed.

Lemma inv_with_client cs p st c cl' :
  lock_inv cs p st -> zc_session cl' = zc_session (cget (zs_clients st) c) ->
  (forall t0, In c cs -> cache_get (zc_cache cl') p = Some t0 -> exists n, tget (zs_tree st) p = Some n /\ zn_val n = ZOwner c) ->
  lock_inv cs p (with_client st c cl').
Proof.
  intros [I1 I2 I3 I4 I5] Hs Hc.
  assert (S : forall d, zc_session (cget (cput (zs_clients st) c cl') d) = zc_session (cget (zs_clients st) d)).
  { intros d. rewrite cget_cput. destruct (N.eqb_spec d c) as [->|_]; [exact Hs|reflexivity]. }
  constructor; cbn [with_client zs_tree zs_clients zs_next]; [exact I1| | | |].
  - intros c1 c2 H1 H2 Hne. rewrite !S. apply I2; assumption.
  - intros c1 H1. rewrite S. apply I3, H1.
  - intros x n c1 Hx Hv. rewrite S. apply (I4 x n c1 Hx Hv).
  - intros c1 t0 H1. rewrite cget_cput. destruct (N.eqb_spec c1 c) as [->|_]; [apply Hc, H1|apply I5, H1].
Qed.
Lemma inv_forget cs p st c q : lock_inv cs p st ->
  lock_inv cs p (with_client st c {| zc_session := zc_session (cget (zs_clients st) c); zc_cache := cache_del (zc_cache (cget (zs_clients st) c)) q |}).
Proof.
  intros I. apply inv_with_client; [exact I|reflexivity|]. intros t0 Hc. cbn [zc_cache]. rewrite cache_get_del.
  destruct (path_eqb p q); [discriminate|apply (li_cache _ _ _ I c t0 Hc)].
Qed.
Lemma inv_hold cs p st c cl q now : lock_inv cs p st -> cget (zs_clients st) c = cl ->
  (exists n, tget (zs_tree st) q = Some n /\ zn_val n = ZOwner c) ->
  lock_inv cs p (with_client st c {| zc_session := zc_session cl; zc_cache := (q, now) :: zc_cache cl |}).
Proof.
  intros I <- Hn. apply inv_with_client; [exact I|reflexivity|]. intros t0 Hc. cbn [zc_cache cache_get].
  destruct (path_eqb_spec p q) as [->|_]; [intros _; exact Hn|apply (li_cache _ _ _ I c t0 Hc)].
Qed.

Lemma set_inv cs p st c rp v eph : lock_inv cs p st -> normalize rp <> p -> lock_inv cs p (fst (zstep st (OSet c rp v eph))).
Proof.
  intros I Wp. pose proof (li_uniq _ _ _ I) as U. cbn [zstep]. destruct (normalize rp) as [|x r]; [exact I|].
  destruct (tget (zs_tree st) (x :: r)) as [m|].
  - destruct (eph && _); [exact I|]. apply inv_plain_frame; [exact I|].
    apply frame_tput; [exact U|intros E; destruct (Wp E)|intros c0; discriminate].
  - rewrite let_pair. set (mp := make_path _ _).
    assert (F1 : frame plain p (zs_tree st) (fst mp)) by (apply frame_make_path; [exact U|intros c0; discriminate]).
    destruct (negb (snd mp)); [exact (inv_plain_frame _ _ _ _ I F1)|]. rewrite let_pair. apply inv_plain_frame; [exact I|].
    apply (frame_trans _ _ _ (fst mp)); [exact F1|]. apply frame_srv_create; [apply F1|intros c0; discriminate].
Qed.

(* the outcomes of AcquireLock: answered from the cache, refused, granted on the client's own node, granted on a new one *)
Lemma acquire_cases st c rp :
  let q := normalize rp in let cl := cget (zs_clients st) c in let t := zs_tree st in
  let cl1 := {| zc_session := zc_session cl; zc_cache := cache_del (zc_cache cl) q |} in
  let st1 := with_client st c cl1 in
  let hold t' := with_client (with_tree st1 t') c {| zc_session := zc_session cl1; zc_cache := (q, zs_now st) :: zc_cache cl1 |} in
  (zstep st (OAcquire c rp) = (st, ZBool true) /\ exists t0, cache_get (zc_cache cl) q = Some t0) \/
  zstep st (OAcquire c rp) = (st1, ZBool false) \/
  (zstep st (OAcquire c rp) = (hold t, ZBool true) /\ exists n, tget t q = Some n /\ zn_val n = ZOwner c) \/
  (zstep st (OAcquire c rp) = (hold (tput t q {| zn_val := ZOwner c; zn_eph := Some (zc_session cl) |}), ZBool true) /\ tget t q = None).
Proof.
  intros q cl t cl1 st1 hold. remember (zstep st (OAcquire c rp)) as z eqn:Ez. cbn [zstep] in Ez. fold q cl t cl1 st1 in Ez.
  destruct (match cache_get (zc_cache cl) q with Some t0 => _ | None => false end) eqn:Ef.
  { left. split; [exact Ez|]. destruct (cache_get (zc_cache cl) q) as [t0|]; [eauto|discriminate]. }
  clear Ef. right. destruct (tget t q) as [m|] eqn:Em.
  - destruct (zn_val m) eqn:Ev; try (left; exact Ez). destruct (N.eqb_spec c c0) as [<-|_]; [right; left; eauto|left; exact Ez].
  - destruct (srv_create t q _) as [t' r] eqn:E. apply srv_create_cases in E.
    destruct E as [(-> & -> & _)|(_ & _ & [[-> ->]|[-> ->]])]; [left; exact Ez|left; exact Ez|right; right; split; [exact Ez|reflexivity]].
Qed.

Lemma acquire_inv cs p st c rp : lock_inv cs p st -> In c cs -> lock_inv cs p (fst (zstep st (OAcquire c rp))).
Proof.
  intros I Hc. pose proof (inv_forget cs p st c (normalize rp) I) as S1.
  destruct (acquire_cases st c rp) as [[-> _]|[->|[[-> Hn]|[-> Hn]]]]; cbn [fst]; [exact I|exact S1| |].
  - eapply inv_hold; [exact S1|apply cget_cput_same|exact Hn].
  - eapply inv_hold; [|apply cget_cput_same|].
    + (* the new node is the client's own, under its current session *)
      apply (inv_frame _ _ _ (eq {| zn_val := ZOwner c; zn_eph := Some (zc_session (cget (zs_clients st) c)) |})); [exact S1| |].
      * apply frame_tput; [exact (li_uniq _ _ _ I)|intros <-; exact Hn|reflexivity].
      * intros n c1 <- [= <-]. split; [exact Hc|]. cbn. rewrite cget_cput_same. reflexivity.
    + eexists. cbn [with_tree zs_tree]. rewrite tget_tput, path_eqb_refl. split; reflexivity.
Qed.

Lemma release_inv cs p st c rp : lock_inv cs p st -> lock_inv cs p (fst (zstep st (ORelease c rp))).
Proof.
  intros I. pose proof (inv_forget cs p st c (normalize rp) I) as S1. cbn [zstep]. set (q := normalize rp) in *.
  destruct (tget (zs_tree st) q) as [m|] eqn:Em; [|exact S1]. destruct (zn_val m) eqn:Ev; try exact S1.
  destruct (N.eqb_spec c c0) as [<-|_]; [|exact S1]. destruct (has_children _ _); [exact S1|]. cbn [andb negb fst].
  destruct S1 as [J1 J2 J3 J4 J5]. constructor; cbn [with_tree with_client zs_tree zs_clients zs_next] in *; [apply uniq_tdel, J1|exact J2|exact J3| |].
  - intros x n c1. rewrite tget_tdel. destruct (path_eqb x q); [discriminate|apply J4].
  - intros c1 t0 H1 Hcache. destruct (J5 c1 t0 H1 Hcache) as (n & A & B). exists n. split; [|exact B].
    rewrite tget_tdel. destruct (path_eqb_spec p q) as [E|_]; [exfalso|exact A].
    (* the released node was p: only its owner c could have it cached, and c's entry was just dropped *)
    rewrite E, Em in A. injection A as <-. rewrite Ev in B. injection B as <-.
    rewrite cget_cput_same in Hcache. cbn [zc_cache] in Hcache. rewrite E, cache_get_del, path_eqb_refl in Hcache. discriminate.
Qed.

Lemma expire_inv cs p st c : lock_inv cs p st -> In c cs -> lock_inv cs p (fst (zstep st (OExpire c))).
Proof.
  intros [I1 I2 I3 I4 I5] Wc. cbn [zstep fst]. set (s := zc_session (cget (zs_clients st) c)).
  set (g := fun n : znode => match zn_eph n with Some s0 => negb (N.eqb s0 s) | None => true end).
  constructor; cbn [zs_tree zs_clients zs_next].
  - apply uniq_filter, I1.
  - (* the fresh session differs from every live one *)
    intros c1 c2 H1 H2 Hne. rewrite !cget_cput.
    destruct (N.eqb_spec c1 c) as [->|_], (N.eqb_spec c2 c) as [->|_]; cbn [zc_session];
      [contradiction|apply N.neq_sym, N.lt_neq, I3, H2|apply N.lt_neq, I3, H1|apply I2; assumption].
  - intros c1 H1. rewrite cget_cput. destruct (N.eqb c1 c); cbn [zc_session]; [apply N.lt_succ_diag_r|apply N.lt_lt_succ_r, I3, H1].
  - intros x n c1 Hx Hv. rewrite (tget_filter g) in Hx by exact I1. destruct (tget (zs_tree st) x) as [n0|] eqn:E0; [|discriminate].
    destruct (g n0) eqn:Eg; [|discriminate]. injection Hx as ->. destruct (I4 x n c1 E0 Hv) as [A B]. split; [exact A|].
    rewrite cget_cput. destruct (N.eqb_spec c1 c) as [->|_]; [|exact B].
    exfalso. unfold g in Eg. rewrite B in Eg. subst s. rewrite N.eqb_refl in Eg. discriminate.
  - intros c1 t0 H1. rewrite cget_cput. destruct (N.eqb_spec c1 c) as [->|N1]; [discriminate|]. intros Hcache.
    destruct (I5 c1 t0 H1 Hcache) as (n & A & B). exists n. split; [|exact B].
    rewrite (tget_filter g) by exact I1. rewrite A. destruct (I4 p n c1 A B) as [_ Be]. unfold g. rewrite Be.
    destruct (N.eqb_spec (zc_session (cget (zs_clients st) c1)) s) as [E|_]; [|reflexivity].
    destruct (I2 c1 c H1 Wc N1 E).
Qed.

Theorem lock_inv_step cs p st o : lock_inv cs p st -> wf_op cs p o -> lock_inv cs p (fst (zstep st o)).
Proof.
  intros I [Wc Wp]. pose proof (li_uniq _ _ _ I) as U. destruct o; cbn [op_client] in Wc.
  - cbn [zstep]. rewrite let_pair. apply inv_plain_frame; [exact I|]. apply frame_srv_create; [exact U|intros c0; discriminate].
  - apply set_inv; assumption.
  - rewrite get_changes_nothing. exact I.
  - cbn [zstep]. destruct (normalize p0) as [|x r]; [exact I|]. destruct (tget _ _); [|exact I]. destruct (has_children _ _); [exact I|].
    apply inv_plain_frame; [exact I|]. apply frame_tdel; assumption.
  - cbn [zstep]. destruct (normalize p0) as [|x r]; [exact I|]. destruct (tget (zs_tree st) (x :: r)); exact I.
  - apply acquire_inv; assumption.
  - apply release_inv, I.
  - apply expire_inv; assumption.
  - destruct I. constructor; assumption.
  - cbn [zstep]. destruct (tget _ _) as [m|]; [|exact I]. apply inv_plain_frame; [exact I|].
    apply frame_tput; [exact U|intros E; destruct (Wp E)|intros c0; discriminate].
  - apply (inv_with_client cs p st c {| zc_session := zc_session (cget (zs_clients st) c); zc_cache := [] |}); [exact I|reflexivity|discriminate].
Qed.

Lemma lock_inv_init cs p ttl : (forall c, In c cs -> N.lt c 100) -> lock_inv cs p (zinit ttl cs).
Proof.
  intros Hlt.
  assert (G : forall c, In c cs -> cget (map (fun c0 => (c0, {| zc_session := c0; zc_cache := [] |})) cs) c = {| zc_session := c; zc_cache := [] |}).
  { clear. induction cs as [|x r IH]; intros c [].
    - subst x. cbn. rewrite N.eqb_refl. reflexivity.
    - cbn. destruct (N.eqb_spec c x) as [->|Hn]; [reflexivity|apply IH; exact H]. }
  constructor; cbn [zinit zs_tree zs_clients zs_next].
  - exact I.
  - intros c1 c2 H1 H2 Hne. rewrite (G c1 H1), (G c2 H2). cbn. exact Hne.
  - intros c H. rewrite (G c H). cbn. apply Hlt. exact H.
  - intros q n c H. discriminate H.
  - intros c t0 H Hc. rewrite (G c H) in Hc. discriminate Hc.
Qed.

Fixpoint zstates (st : zstate) (ops : list zop) : zstate :=
  match ops with [] => st | o :: r => zstates (fst (zstep st o)) r end.

Theorem lock_inv_reachable cs p ttl ops : (forall c, In c cs -> N.lt c 100) ->
  Forall (wf_op cs p) ops -> lock_inv cs p (zstates (zinit ttl cs) ops).
Proof.
  intros Hlt. generalize (lock_inv_init cs p ttl Hlt). generalize (zinit ttl cs).
  induction ops as [|o r IH]; intros st I F; [exact I|]. inversion F; subst. cbn [zstates]. apply IH; [apply lock_inv_step; assumption|assumption].
Qed.

(* what "told it holds the lock" implies in a state satisfying the invariant *)
Lemma acquire_true_owner cs p st c rp : lock_inv cs p st -> In c cs -> normalize rp = p ->
  snd (zstep st (OAcquire c rp)) = ZBool true ->
  exists n, tget (zs_tree (fst (zstep st (OAcquire c rp)))) p = Some n /\ zn_val n = ZOwner c.
Proof.
  intros I Hc <-. destruct (acquire_cases st c rp) as [[-> [t0 Hn]]|[->|[[-> Hn]|[-> Hn]]]]; cbn [fst snd with_client with_tree zs_tree].
  - intros _. apply (li_cache _ _ _ I c t0 Hc Hn).
  - discriminate.
  - intros _. exact Hn.
  - intros _. eexists. rewrite tget_tput, path_eqb_refl. split; reflexivity.
Qed.
Lemma acquire_keeps st c rp q n : tget (zs_tree st) q = Some n -> normalize rp = q ->
  tget (zs_tree (fst (zstep st (OAcquire c rp)))) q = Some n.
Proof.
  intros H <-. destruct (acquire_cases st c rp) as [[-> _]|[->|[[-> _]|[_ Hn]]]]; cbn [fst with_client with_tree zs_tree]; try exact H.
  rewrite Hn in H. discriminate.
Qed.

(* C03: exclusivity - in any reachable state, if one process is told it holds the lock and immediately
   afterwards another one is told so too, they are the same process *)
Theorem lock_is_exclusive cs p ttl ops c1 c2 rp1 rp2 :
  (forall c, In c cs -> N.lt c 100) -> Forall (wf_op cs p) ops ->
  In c1 cs -> In c2 cs -> normalize rp1 = p -> normalize rp2 = p ->
  let st := zstates (zinit ttl cs) ops in
  let st1 := fst (zstep st (OAcquire c1 rp1)) in
  snd (zstep st (OAcquire c1 rp1)) = ZBool true ->
  snd (zstep st1 (OAcquire c2 rp2)) = ZBool true ->
  c1 = c2.
Proof.
  intros Hlt F H1 H2 P1 P2 st st1 A1 A2.
  pose proof (lock_inv_reachable cs p ttl ops Hlt F) as I. fold st in I.
  assert (I' : lock_inv cs p st1) by (apply lock_inv_step; [exact I|split; [exact H1|exact Logic.I]]).
  destruct (acquire_true_owner cs p st c1 rp1 I H1 P1 A1) as (n1 & T1 & V1). fold st1 in T1.
  destruct (acquire_true_owner cs p st1 c2 rp2 I' H2 P2 A2) as (n2 & T2 & V2).
  rewrite (acquire_keeps st1 c2 rp2 p n1 T1 P2) in T2. injection T2 as <-. congruence.
Qed.

Theorem release_keeps_foreign_lock st c rp n c' :
  tget (zs_tree st) (normalize rp) = Some n -> zn_val n = ZOwner c' -> c <> c' ->
  zs_tree (fst (zstep st (ORelease c rp))) = zs_tree st.
Proof.
  intros Ht Hv Hne. cbn [zstep]. rewrite Ht, Hv. destruct (N.eqb_spec c c'); [contradiction|]. reflexivity.
Qed.

(* a lost session drops the cached belief: the next answer comes from the server's tree *)
Theorem expire_clears_cache st c : zc_cache (cget (zs_clients (fst (zstep st (OExpire c)))) c) = [].
Proof. cbn [zstep fst zs_clients]. rewrite cget_cput_same. reflexivity. Qed.
