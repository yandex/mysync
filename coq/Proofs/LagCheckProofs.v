(* C20 for the background lag checker (Procs/LagCheck.v): it never crashes and it only reads. *)
From Coq Require Import ZArith NArith Bool List Lia.
From Mysync Require Import Base.Prog Base.ProgFacts Procs.LagCheck Proofs.NodeOpsProofs Proofs.ManagerProofs Proofs.GatesProofs.
Import ListNotations.
Open Scope Z_scope.

Theorem lag_check_nopanic bound local m : nopanic (lag_check bound local m).
Proof.
  unfold lag_check. apply nopanic_bind; [apply np_update_hosts|]. intros [ok m1]. case (negb ok); [exact I|].
  walk ltac:(exact I).
Qed.

Theorem lag_check_only_reads bound local m : allcalls (fun _ c => readb c = true) (lag_check bound local m).
Proof.
  unfold lag_check. apply allcalls_bind; [apply update_hosts_calls; reflexivity|]. intros [ok m1]. case (negb ok); [exact I|].
  walk ltac:(first [exact I | reflexivity]).
Qed.
