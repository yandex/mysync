From Coq Require Import ZArith NArith Bool List Lia.
From Mysync Require Import Proofs.NodeOpsProofs Proofs.ActiveNodesProofs.
From Mysync Require Import Gtid.Interval Gtid.GtidSet Pure.Quorum Base.Prog Base.ProgFacts Base.Config
  Procs.NodeOps Procs.ActiveNodes Procs.Switchover Procs.Manager Proofs.SwitchoverProofs.
Import ListNotations.
Open Scope Z_scope.

Lemma prim_children_or_empty s p : prim s (DcsChildren p) (children_or_empty s p). Proof. prim_tac. Qed.
#[export] Hint Resolve prim_children_or_empty : prim.

Lemma update_hosts_calls (P : site -> call -> Prop) m :
  (forall s, P s (DcsChildren PHaNodes)) -> (forall s, P s (DcsChildren PCascadeNodes)) -> (forall s h, P s (DcsGet (PCascadeNode h))) ->
  allcalls P (update_hosts_info m).
Proof.
  intros H1 H2 H3.
  assert (CC : forall l, allcalls P (cascade_configs l)).
  { induction l as [|h t IH]; [exact I|]. cbn [cascade_configs]. walk ltac:(first [exact I|apply H3|exact IH]). }
  unfold update_hosts_info. walk ltac:(first [exact I|apply H1|apply H2|apply CC]).
Qed.

Lemma np_update_hosts m : nopanic (update_hosts_info m).
Proof.
  assert (CC : forall l, nopanic (cascade_configs l)).
  { induction l as [|h t IH]; [exact I|]. cbn [cascade_configs]. walk ltac:(first [exact I|exact IH]). }
  unfold update_hosts_info. walk ltac:(first [exact I|apply CC]).
Qed.

Definition has_ev (tr : trace) (P : event -> Prop) : Prop := exists e, In e tr /\ P e.
Lemma has_ev_incl t t' P : incl t t' -> has_ev t P -> has_ev t' P.
Proof. intros I (e & H & K). exists e. split; [exact (I e H)|exact K]. Qed.
Lemma has_ev_here e t (P : event -> Prop) : P e -> has_ev (e :: t) P.
Proof. intros H. exists e. split; [left; reflexivity|exact H]. Qed.
Lemma has_ev_tl e t P : has_ev t P -> has_ev (e :: t) P.
Proof. apply has_ev_incl, incl_tl, incl_refl. Qed.
Lemma has_ev_appl a b P : has_ev a P -> has_ev (a ++ b) P.
Proof. apply has_ev_incl, incl_appl, incl_refl. Qed.
Lemma has_ev_appr a b P : has_ev b P -> has_ev (a ++ b) P.
Proof. apply has_ev_incl, incl_appr, incl_refl. Qed.
Lemma no_ev_Forall tr (Q : event -> Prop) : Forall (fun e => ~ Q e) tr -> ~ has_ev tr Q.
Proof. intros F (e & Hin & K). rewrite Forall_forall in F. exact (F e Hin K). Qed.

Definition is_file_request (c : call) : Prop := match c with DcsCreate PSwitch _ => True | _ => False end.
Definition now_val (e : event) : Z := match ev_resp e with RZ z => z | _ => 0 end.
Definition now_in (tr : trace) (t : Z) : Prop := exists e, In e tr /\ ev_call e = Now /\ t = now_val e.

Lemma now_in_cons e tr t : now_in tr t -> now_in (e :: tr) t.
Proof. apply has_ev_tl. Qed.

Lemma run_now {A} s (k : Z -> prog A) tr o : runs (t <- now_ s ;; k t) tr o ->
  exists e tr', tr = e :: tr' /\ ev_call e = Now /\ runs (k (now_val e)) tr' o.
Proof.
  unfold now_. cbn [bind runs]. destruct tr as [|e tr']; [intros []|]. intros (_ & Ec & H).
  exists e, tr'. split; [reflexivity|]. split; [exact Ec|]. unfold now_val. destruct (ev_resp e); exact H.
Qed.
Lemma holds_now {A} s (k : Z -> prog A) (Psi : trace -> outcome A -> Prop) :
  (forall e, ev_call e = Now -> holds (k (now_val e)) (fun t o => Psi (e :: t) o)) -> holds (t <- now_ s ;; k t) Psi.
Proof. intros H tr o R. apply run_now in R. destruct R as (e & tr' & -> & Ec & R). exact (H e Ec tr' o R). Qed.
Lemma returns_now {A} s (k : Z -> prog A) (Psi : trace -> A -> Prop) :
  (forall e, ev_call e = Now -> returns (k (now_val e)) (fun t a => Psi (e :: t) a)) -> returns (t <- now_ s ;; k t) Psi.
Proof. intros H. apply holds_now. exact H. Qed.

(* the last-switch gate of approveFailover, as read in this run *)
Definition last_ok (cfg : config) (tr : trace) : Prop :=
  exists e, In e tr /\ ev_call e = DcsGet PLastSwitch /\
    (ev_resp e = RErr ENotFound \/
     exists last ok fin t, ev_resp e = RVal (VSwitch last) /\ sw_result last = Some (ok, fin) /\ now_in tr t /\
       (fin = 0 \/ c_failover_cooldown cfg <= t - fin \/ sw_cause_ last <> CauseAuto)).

Lemma last_ok_incl cfg t t' : incl t t' -> last_ok cfg t -> last_ok cfg t'.
Proof.
  intros I (e & Hin & Ec & L). exists e. split; [exact (I e Hin)|]. split; [exact Ec|].
  destruct L as [L|(last & ok & fin & x & E1 & E2 & Nx & L)]; [left; exact L|]. right. exists last, ok, fin, x.
  split; [exact E1|]. split; [exact E2|]. split; [exact (has_ev_incl _ _ _ I Nx)|exact L].
Qed.

Lemma approve_tail_true cfg cs active tr : runs (approve_tail cfg cs active) tr (Done true) ->
  check_quorum (c_semi_sync cfg) (c_wait_count cfg) (Z.of_nat (length active)) (count_alive_ha_slaves_within active cs) = true /\ last_ok cfg tr.
Proof.
  enough (K : returns (approve_tail cfg cs active) (fun tr b => b = true ->
    check_quorum (c_semi_sync cfg) (c_wait_count cfg) (Z.of_nat (length active)) (count_alive_ha_slaves_within active cs) = true /\ last_ok cfg tr))
    by (intros R; exact (K _ _ R eq_refl)).
  unfold approve_tail. destruct (check_quorum _ _ _ _); cbn [negb]; [|apply returns_ret; discriminate].
  apply returns_do. intros e Ec.
  assert (NO : returns (Ret false) (fun t b => b = true -> true = true /\ last_ok cfg (e :: t))) by (apply returns_ret; discriminate).
  destruct (ev_resp e) as [er| | | | | | | | | | |v| | |] eqn:Er; try exact NO.
  - destruct er; try exact NO. apply returns_ret. intros _. split; [reflexivity|]. apply has_ev_here. split; [exact Ec|]. left. exact Er.
  - destruct v as [| |last| | | | | | | | | |]; try exact NO. destruct (sw_result last) as [[ok fin]|] eqn:Es; [|exact NO].
    apply returns_now. intros e2 Ec2. apply returns_ret. intros K. split; [reflexivity|].
    apply has_ev_here. split; [exact Ec|]. right. exists last, ok, fin, (now_val e2).
    split; [exact Er|]. split; [exact Es|]. split; [apply now_in_cons, has_ev_here; auto|].
    apply negb_true_iff, andb_false_iff in K. destruct K as [K|K].
    + apply andb_false_iff in K. destruct K as [K|K]; [left; apply negb_false_iff, Z.eqb_eq in K; exact K|right; left; apply Z.ltb_ge in K; exact K].
    + right. right. intros E. rewrite E in K. discriminate K.
Qed.

Lemma approve_pre_true cfg cs msd m master tr all : runs (approve_pre cfg cs msd m master) tr (Done true) -> incl tr all ->
  crash_recovered cfg msd = true \/ ns_fs_ro msd = true \/
  (all_others_replicating cs = false /\
   (c_failover_delay cfg <= 0 \/ failed_at m master = 0 \/ exists t, now_in all t /\ c_failover_delay cfg <= t - failed_at m master)).
Proof.
  intros H I. revert H. unfold approve_pre. destruct (crash_recovered cfg msd); [left; reflexivity|]. destruct (ns_fs_ro msd); [right; left; reflexivity|].
  destruct (all_others_replicating cs); [intros H; apply run_ret in H; destruct H; discriminate|].
  intros H. right. right. split; [reflexivity|].
  destruct (0 <? c_failover_delay cfg) eqn:Ed; [|left; apply Z.ltb_ge in Ed; exact Ed].
  apply run_now in H. destruct H as (e & tr' & -> & Ec & H). apply run_ret in H. destruct H as [-> K].
  apply orb_true_iff in K. destruct K as [K|K]; [right; left; apply Z.eqb_eq in K; exact K|].
  right. right. exists (now_val e). split; [apply (has_ev_incl _ _ _ I), has_ev_here; auto|].
  apply negb_true_iff, Z.ltb_ge in K. exact K.
Qed.

Theorem approve_failover_true cfg cs msd active m master tr :
  runs (approve_failover cfg cs msd active m master) tr (Done true) ->
  c_failover cfg = true /\
  (crash_recovered cfg msd = true \/ ns_fs_ro msd = true \/
   (all_others_replicating cs = false /\
    (c_failover_delay cfg <= 0 \/ failed_at m master = 0 \/ exists t, now_in tr t /\ c_failover_delay cfg <= t - failed_at m master))) /\
  check_quorum (c_semi_sync cfg) (c_wait_count cfg) (Z.of_nat (length active)) (count_alive_ha_slaves_within active cs) = true /\
  last_ok cfg tr.
Proof.
  unfold approve_failover. destruct (c_failover cfg); cbn [negb]; [|intros H; apply run_ret in H; destruct H; discriminate].
  intros H. split; [reflexivity|].
  destruct (runs_bind_done _ _ _ _ H) as (t1 & t2 & pre & R1 & R2 & ->).
  destruct pre; cbn [negb] in R2; [|apply run_ret in R2; destruct R2; discriminate].
  apply approve_tail_true in R2. destruct R2 as [Q L].
  split; [exact (approve_pre_true _ _ _ _ _ _ _ R1 (incl_appl _ (incl_refl _)))|].
  split; [exact Q|exact (last_ok_incl _ _ _ (incl_appr _ (incl_refl _)) L)].
Qed.

Lemma assoc_set_same {V} h (v : V) l : assoc h (assoc_set h v l) = Some v.
Proof.
  induction l as [|[k w] r IH]; cbn; [rewrite N.eqb_refl; reflexivity|].
  destruct (N.eqb h k) eqn:E; cbn; rewrite E; [reflexivity|exact IH].
Qed.
Lemma failed_at_set m h t : failed_at (set_failed_at_ m h t) h = t.
Proof. unfold failed_at, set_failed_at_, with_an. cbn [mm_an am_failed_at]. rewrite assoc_set_same. reflexivity. Qed.

Definition nofile (c : call) : Prop := ~ is_file_request c.

Lemma nf_start_timing_at n t : allcalls (fun _ c => nofile c) (start_timing_at n t).
Proof. unfold start_timing_at, start_timing_now. walk ltac:(first [exact I|exact (fun K => K)]). Qed.
Lemma nf_stop_timing n : allcalls (fun _ c => nofile c) (stop_timing n).
Proof. unfold stop_timing. walk ltac:(first [exact I|exact (fun K => K)]). Qed.
Lemma nf_approve cfg cs msd active m master : allcalls (fun _ c => nofile c) (approve_failover cfg cs msd active m master).
Proof. unfold approve_failover, approve_pre, approve_tail. walk ltac:(first [exact I|exact (fun K => K)]). Qed.

Definition auto_request (master : host) (t : Z) : dval :=
  VSwitch {| sw_from := Some master; sw_to := None; sw_cause_ := CauseAuto; sw_kind := SwFailover; sw_master_transition := true;
             sw_run_count := 0; sw_initiated_at := t; sw_started := false; sw_started_at := 0; sw_result := None |}.

Lemma issue_failover_events master tr o : runs (issue_failover master) tr o ->
  forall e, In e tr -> is_file_request (ev_call e) -> exists t, ev_call e = DcsCreate PSwitch (auto_request master t).
Proof.
  unfold issue_failover. intros H e Hin Hf. apply run_now in H. destruct H as (e0 & tr' & -> & Ec & H).
  destruct Hin as [<-|Hin]; [rewrite Ec in Hf; destruct Hf|].
  cbn [runs] in H. destruct tr' as [|e1 tr'']; [destruct H|]. destruct H as (_ & Ec1 & H).
  destruct Hin as [<-|Hin]; [exists (now_val e0); exact Ec1|]. exfalso.
  assert (K : tr'' = []) by (revert H; destruct (ev_resp e1); intros [K _]; exact K). subst tr''. destruct Hin.
Qed.

(* the first block of failure_detection: a failing master without a running clock gets one, started now *)
Definition fd_clock (m : mgr_mem) (master : host) : prog mgr_mem :=
  if failed_at m master =? 0 then t <- now_ 531 ;; start_timing_at 0 t ;;; start_timing_at 1 t ;;; Ret (set_failed_at_ m master t) else Ret m.

Lemma fd_clock_returns m master : returns (fd_clock m master) (fun tr m1 =>
  (failed_at m master <> 0 -> m1 = m) /\ (failed_at m master = 0 -> exists t, now_in tr t /\ failed_at m1 master = t)).
Proof.
  unfold fd_clock. destruct (failed_at m master =? 0) eqn:E0.
  - apply Z.eqb_eq in E0. apply returns_now. intros e Ec. apply returns_bind. intros _ t1 _. apply returns_bind. intros _ t2 _.
    apply returns_ret. split; [intros K; destruct (K E0)|]. intros _. exists (now_val e). split; [apply has_ev_here; auto|apply failed_at_set].
  - apply Z.eqb_neq in E0. apply returns_ret. split; [reflexivity|intros K; destruct (E0 K)].
Qed.
Lemma nf_fd_clock m master : allcalls (fun _ c => nofile c) (fd_clock m master).
Proof. unfold fd_clock. walk ltac:(first [exact I|exact (fun K => K)|apply nf_start_timing_at]). Qed.

(* C05: failure detection files a request only with light maintenance off, a bad health record and an
   approval obtained in the same run with the clock this iteration left in memory; and what it files is
   the automatic failover from the recorded master *)
Theorem failure_detection_files cfg cs msd active m master light tr o :
  runs (failure_detection cfg cs msd active m master light) tr o ->
  forall e, In e tr -> is_file_request (ev_call e) ->
    light = false /\ (ns_ping_ok msd = false \/ ns_fs_ro msd = true) /\
    (exists t, ev_call e = DcsCreate PSwitch (auto_request master t)) /\
    exists m1 tr_a, runs (approve_failover cfg cs msd active m1 master) tr_a (Done true) /\ incl tr_a tr /\
      (failed_at m master <> 0 -> m1 = m) /\ (failed_at m master = 0 -> exists t, now_in tr t /\ failed_at m1 master = t).
Proof.
  intros H e Hin Hf. revert tr o H Hin.
  assert (Hbad : ~ ev_ok (fun _ c => nofile c) e) by (intros K; exact (K Hf)).
  refine (located_runs e _ _ _).
  unfold failure_detection. destruct (negb (ns_ping_ok msd) || ns_fs_ro msd) eqn:Ebad.
  2:{ apply (located_quiet _ _ Hbad), quiet_allcalls. walk ltac:(first [exact I|apply nf_stop_timing]). }
  (* the request can only sit in what follows an approval *)
  apply (located_bind _ _ Hbad); [apply quiet_allcalls, nf_fd_clock|]. intros m1 t1 R1.
  destruct (returns_runs _ _ _ _ (fd_clock_returns m master) R1) as [C1 C2].
  destruct light; [apply located_ret|].
  apply (located_bind _ _ Hbad); [apply quiet_allcalls, nf_approve|]. intros ap ta Ra.
  destruct ap; [|apply (located_quiet _ _ Hbad), quiet_allcalls; exact I].
  intros t o R Hin. apply runs_bind_ret in R. destruct R as [o1 R]. apply runs_bind_ret in R. destruct R as [o2 R].
  split; [reflexivity|]. split.
  { apply orb_true_iff in Ebad. destruct Ebad as [E|E]; [left; apply negb_true_iff in E; exact E|right; exact E]. }
  split; [exact (issue_failover_events _ _ _ R e Hin Hf)|].
  exists m1, ta. split; [exact Ra|]. split; [apply incl_appr, incl_appl, incl_refl|]. split; [exact C1|].
  intros Z0. destruct (C2 Z0) as (x & Nx & Ex). exists x. split; [apply has_ev_appl; exact Nx|exact Ex].
Qed.

(* one evaluation of the master's health record by a manager: bad -> keep a running clock or start it at
   `now`; good -> reset *)
Definition clock_step (clk : Z) (ev : bool * Z) : Z :=
  let '(bad, now) := ev in if bad then (if clk =? 0 then now else clk) else 0.

Definition is_bad (msd : node_state) : bool := negb (ns_ping_ok msd) || ns_fs_ro msd.

Theorem failure_detection_clock cfg cs msd active m master light tr b m' :
  runs (failure_detection cfg cs msd active m master light) tr (Done (b, m')) ->
  exists now, failed_at m' master = clock_step (failed_at m master) (is_bad msd, now) /\
              (is_bad msd = true -> failed_at m master = 0 -> now_in tr now).
Proof.
  apply (returns_runs _ (fun tr r => exists now, failed_at (snd r) master = clock_step (failed_at m master) (is_bad msd, now) /\
              (is_bad msd = true -> failed_at m master = 0 -> now_in tr now))).
  unfold failure_detection, is_bad, clock_step. destruct (negb (ns_ping_ok msd) || ns_fs_ro msd).
  - apply returns_bind. intros m1 t1 R1. destruct (returns_runs _ _ _ _ (fd_clock_returns m master) R1) as [C1 C2].
    (* what follows the clock part returns its memory *)
    enough (K : forall t, exists now, failed_at m1 master = (if failed_at m master =? 0 then now else failed_at m master) /\
                (true = true -> failed_at m master = 0 -> now_in (t1 ++ t) now)).
    { destruct light; [apply returns_ret; apply K|]. apply returns_bind. intros ap ta _. apply returns_bind. intros _ ti _. apply returns_ret. apply K. }
    intros t. destruct (failed_at m master =? 0) eqn:E0.
    + apply Z.eqb_eq in E0. destruct (C2 E0) as (x & Nx & Ex). exists x. split; [exact Ex|]. intros _ _. apply has_ev_appl. exact Nx.
    + apply Z.eqb_neq in E0. exists 0. rewrite (C1 E0). split; [reflexivity|]. intros _ K. destruct (E0 K).
  - destruct (negb (failed_at m master =? 0)) eqn:E0.
    + apply returns_bind. intros _ ta _. apply returns_bind. intros _ tb _. apply returns_ret.
      exists 0. split; [apply failed_at_set|discriminate].
    + apply returns_ret. exists 0. split; [|discriminate]. apply negb_false_iff, Z.eqb_eq in E0. exact E0.
Qed.

Fixpoint trailing_bad (h : list (bool * Z)) : list (bool * Z) :=
  match h with
  | [] => []
  | (bad, now) :: r => match trailing_bad r with
                      | [] => if forallb fst r then (if bad then (bad, now) :: r else r) else []
                      | l => l
                      end
  end.

(* any history of evaluations by one manager process (clock 0 = not running; evaluation instants are
   not 0): a running clock is the instant of the FIRST evaluation of the trailing run of bad ones, so
   every evaluation since then saw a bad record *)
Lemma clock_history : forall (h : list (bool * Z)) (clk0 : Z),
  Forall (fun ev => snd ev <> 0) h ->
  let clk := fold_left clock_step h clk0 in
  clk <> 0 ->
  (exists pre suf, h = pre ++ suf /\ suf <> [] /\ Forall (fun ev => fst ev = true) suf /\
                   match suf with ev :: _ => clk = snd ev | [] => False end /\
                   match rev pre with ev :: _ => fst ev = false | [] => clk0 = 0 end)
  \/ (Forall (fun ev => fst ev = true) h /\ clk = clk0).
Proof.
  induction h as [|[bad now] r IH]; intros clk0 Hnz; cbn zeta; [intros _; right; split; [constructor|reflexivity]|].
  apply Forall_cons_iff in Hnz. destruct Hnz as [Hn Hr]. cbn [snd] in Hn. cbn [fold_left]. intros Hc.
  destruct (IH _ Hr Hc) as [(pre & suf & Er & Hne & Hall & Hs & Hp)|[Hall E]]; clear IH.
  - (* the run of bad evaluations starts inside r; if at its head, this evaluation was a good one *)
    left. exists ((bad, now) :: pre), suf. split; [rewrite Er; reflexivity|]. split; [exact Hne|]. split; [exact Hall|]. split; [exact Hs|].
    cbn [rev]. destruct (rev pre) as [|ev rp]; [|exact Hp]. cbn [app fst]. destruct bad; [|reflexivity].
    cbn in Hp. destruct (clk0 =? 0) eqn:E0; [destruct (Hn Hp)|apply Z.eqb_neq in E0; destruct (E0 Hp)].
  - rewrite E in Hc |- *. destruct bad; [|destruct (Hc eq_refl)]. cbn [clock_step]. destruct (clk0 =? 0) eqn:E0.
    + apply Z.eqb_eq in E0. left. exists [], ((true, now) :: r). split; [reflexivity|]. split; [discriminate|].
      split; [constructor; [reflexivity|exact Hall]|]. split; [reflexivity|exact E0].
    + right. split; [constructor; [reflexivity|exact Hall]|reflexivity].
Qed.

Definition timing_only (c : call) : Prop :=
  match c with Now | DcsGet (PTiming _) | DcsDelete (PTiming _) => True | _ => False end.

Theorem suspicious_master_does_nothing cfg cs csd active m master light msd ms :
  assoc master csd = Some msd -> is_bad msd = false ->
  assoc master cs = Some ms -> ns_ping_ok ms = false ->
  allcalls (fun _ c => timing_only c) (after_requests cfg cs csd active m master light) /\
  forall tr g m', runs (after_requests cfg cs csd active m master light) tr (Done (g, m')) -> g = GNext NxManager.
Proof.
  intros Hd Hb Hs Hp. unfold after_requests. rewrite Hd. unfold failure_detection. unfold is_bad in Hb. rewrite Hb. split.
  - apply allcalls_bind; [unfold stop_timing; walk ltac:(exact I)|].
    intros [b mm]. cbn [fst snd]. destruct b; [exact I|]. rewrite Hs, Hp. exact I.
  - intros tr g m'. apply (returns_runs _ (fun _ r => fst r = GNext NxManager)).
    apply returns_bind. intros fd t1 _. rewrite Hs, Hp. destruct (fst fd); apply returns_ret; reflexivity.
Qed.

Definition same_request (a b : switch_rec) : Prop :=
  sw_from a = sw_from b /\ sw_to a = sw_to b /\ sw_cause_ a = sw_cause_ b /\ sw_kind a = sw_kind b /\
  sw_master_transition a = sw_master_transition b /\ sw_initiated_at a = sw_initiated_at b.

Lemma same_request_refl a : same_request a a. Proof. repeat split. Qed.
Lemma with_result_same sw ok t rc : same_request sw (with_result sw ok t rc). Proof. repeat split. Qed.

(* the attempt limit: a planned request at or over the limit is rejected, whatever the cluster looks like *)
Theorem approve_switchover_limit cfg sw active cs :
  is_failover sw = false -> 0 < c_switchover_max_attempts cfg -> c_switchover_max_attempts cfg <= sw_run_count sw ->
  approve_switchover cfg sw active cs = Some 814.
Proof.
  intros Hf Hm Hr. unfold approve_switchover. rewrite Hf. cbn [negb andb].
  assert (0 <? c_switchover_max_attempts cfg = true) as -> by (apply Z.ltb_lt; exact Hm).
  assert (c_switchover_max_attempts cfg <=? sw_run_count sw = true) as -> by (apply Z.leb_le; exact Hr). reflexivity.
Qed.

(* an approved request is not re-judged: once an attempt was made, only the attempt limit can reject it *)
Theorem approve_switchover_not_rejudged cfg sw active cs :
  (0 < sw_run_count sw \/ sw_started sw = true) ->
  (is_failover sw = true \/ c_switchover_max_attempts cfg <= 0 \/ sw_run_count sw < c_switchover_max_attempts cfg) ->
  approve_switchover cfg sw active cs = None.
Proof.
  intros Hr Hl. unfold approve_switchover.
  assert (negb (is_failover sw) && (0 <? c_switchover_max_attempts cfg) && (c_switchover_max_attempts cfg <=? sw_run_count sw) = false) as ->.
  { destruct Hl as [Hl|[Hl|Hl]].
    - rewrite Hl. reflexivity.
    - assert (0 <? c_switchover_max_attempts cfg = false) as -> by (apply Z.ltb_ge; exact Hl). rewrite andb_false_r. reflexivity.
    - assert (c_switchover_max_attempts cfg <=? sw_run_count sw = false) as -> by (apply Z.leb_gt; exact Hl). rewrite andb_false_r. reflexivity. }
  destruct Hr as [Hr|Hr]; [assert (0 <? sw_run_count sw = true) as -> by (apply Z.ltb_lt; exact Hr); reflexivity|].
  rewrite Hr. rewrite orb_true_r. reflexivity.
Qed.

(* a fresh request is judged by the quorum of alive replicas in the published list only *)
Theorem approve_switchover_fresh cfg sw active cs :
  sw_run_count sw = 0 -> sw_started sw = false -> (is_failover sw = true \/ c_switchover_max_attempts cfg <= 0 \/ 0 < c_switchover_max_attempts cfg) ->
  (approve_switchover cfg sw active cs = None <->
   check_quorum (c_semi_sync cfg) (c_wait_count cfg) (Z.of_nat (length active)) (count_alive_ha_slaves_within active cs) = true).
Proof.
  intros Hr Hst _. unfold approve_switchover. rewrite Hr, Hst.
  assert (negb (is_failover sw) && (0 <? c_switchover_max_attempts cfg) && (c_switchover_max_attempts cfg <=? 0) = false) as ->.
  { destruct (0 <? c_switchover_max_attempts cfg) eqn:E; [|rewrite andb_false_r; reflexivity].
    apply Z.ltb_lt in E. assert (c_switchover_max_attempts cfg <=? 0 = false) as -> by (apply Z.leb_gt; exact E). rewrite andb_false_r. reflexivity. }
  cbn [Z.ltb Z.compare orb]. destruct (check_quorum _ _ _ _); split; intros H; try reflexivity; discriminate.
Qed.

(* FailSwitchover: one coordination write - the SAME request with the attempt counted and a failed result *)
Theorem fail_switchover_counts sw tr o : runs (fail_switchover sw) tr o ->
  exists e0 e1, tr = [e0; e1] /\ ev_call e0 = Now /\
    ev_call e1 = DcsSet PSwitch (VSwitch (with_result sw false (now_val e0) (sw_run_count sw + 1))).
Proof.
  revert tr o. unfold fail_switchover. apply holds_now. intros e0 Ec0.
  apply (holds_prim _ _ _ _ (prim_dcs_set _ _ _)). intros e1 a Ec1 _. exists e0, e1. auto.
Qed.

Definition is_switch_key_write (c : call) : Prop :=
  match c with
  | DcsDelete PSwitch | DcsSet PSwitch _ | DcsCreate PSwitch _ | DcsSet PLastSwitch _ | DcsSet PLastRejected _ => True
  | _ => False
  end.

Fixpoint switch_writes (tr : trace) : list event :=
  match tr with
  | [] => []
  | e :: r => match ev_call e with
              | DcsDelete PSwitch | DcsSet PSwitch _ | DcsCreate PSwitch _ | DcsSet PLastSwitch _ | DcsSet PLastRejected _ => e :: switch_writes r
              | _ => switch_writes r
              end
  end.

Lemma switch_writes_key e r : is_switch_key_write (ev_call e) -> switch_writes (e :: r) = e :: switch_writes r.
Proof. cbn [switch_writes]. unfold is_switch_key_write. case (ev_call e); try (intros; contradiction); intros p; case p; intros; first [reflexivity|contradiction]. Qed.

Lemma switch_writes_app a b : switch_writes (a ++ b) = switch_writes a ++ switch_writes b.
Proof.
  induction a as [|e r IH]; [reflexivity|]. cbn [app switch_writes].
  case (ev_call e); try (intros; exact IH); intros p; case p; intros; first [exact IH|cbn [app]; rewrite IH; reflexivity].
Qed.

Definition timing_call (c : call) : Prop := match c with Now | DcsGet (PTiming _) | DcsDelete (PTiming _) | DcsSet (PTiming _) _ => True | _ => False end.

Lemma switch_writes_timing tr : Forall (fun e => timing_call (ev_call e)) tr -> switch_writes tr = [].
Proof.
  induction tr as [|e r IH]; intros H; [reflexivity|]. apply Forall_cons_iff in H. destruct H as [He Hr]. specialize (IH Hr). revert He.
  cbn [switch_writes]. unfold timing_call. case (ev_call e); try (intros; exact IH); intros p; case p; intros; first [exact IH|contradiction].
Qed.

Lemma np_stop_timing n : nopanic (stop_timing n).
Proof. unfold stop_timing. walk ltac:(exact I). Qed.
Lemma np_log_failure sw : nopanic (log_switchover_failure sw).
Proof. unfold log_switchover_failure. walk ltac:(exact I). Qed.
Lemma tc_stop_timing n : allcalls (fun _ c => timing_call c) (stop_timing n).
Proof. unfold stop_timing. walk ltac:(exact I). Qed.
Lemma tc_log_failure sw : allcalls (fun _ c => timing_call c) (log_switchover_failure sw).
Proof. unfold log_switchover_failure. walk ltac:(exact I). Qed.

(* FinishSwitchover: the request is removed and then recorded exactly once - as succeeded iff ok - and the
   record is the same request with its result; nothing is recorded when the removal fails *)
Theorem finish_switchover_records sw ok tr o : runs (finish_switchover sw ok) tr o ->
  exists t rc,
    let rec := with_result sw ok t rc in
    match switch_writes tr with
    | [d] => ev_call d = DcsDelete PSwitch /\ ev_resp d <> ROk
    | [d; s] => ev_call d = DcsDelete PSwitch /\ ev_resp d = ROk /\
                ev_call s = (if ok then DcsSet PLastSwitch (VSwitch rec) else DcsSet PLastRejected (VSwitch rec))
    | _ => False
    end.
Proof.
  revert tr o. unfold finish_switchover. apply holds_now. intros e0 Ec0. cbn zeta.
  set (rec := with_result sw ok (now_val e0) (sw_run_count sw)).
  set (p := if negb ok then _ else _).
  assert (LOG : allcalls (fun _ c => timing_call c) p /\ nopanic p).
  { unfold p. destruct (negb ok); [split; [apply tc_log_failure|apply np_log_failure]|]. destruct (negb (is_failover sw)); split; first [apply tc_stop_timing|apply np_stop_timing]. }
  destruct LOG as [TC NP]. apply holds_bind; [intros t s R; destruct (nopanic_sound _ NP _ _ R) as [x K]; discriminate K|]. intros u t1 R1.
  (* the switch-key writes of the run are those after the clock reading and the timing bookkeeping *)
  assert (W : forall t, switch_writes (e0 :: t1 ++ t) = switch_writes t).
  { intros t. cbn [switch_writes]. rewrite Ec0, switch_writes_app, (switch_writes_timing _ (allcalls_sound _ _ TC _ _ R1)). reflexivity. }
  apply (holds_prim_bind _ _ _ _ _ (prim_dcs_delete _ _)). intros d a Ed Rd. apply dcs_delete_done in Rd.
  destruct a as [x|].
  - apply holds_ret. exists (now_val e0), (sw_run_count sw). cbn zeta. rewrite W, (switch_writes_key d) by (rewrite Ed; exact I). cbn [switch_writes].
    split; [exact Ed|]. intros K. apply Rd in K. discriminate K.
  - assert (Rk : ev_resp d = ROk) by (apply Rd; reflexivity).
    destruct ok; apply (holds_prim _ _ _ _ (prim_dcs_set _ _ _)); intros s a Es _; exists (now_val e0), (sw_run_count sw); cbn zeta;
      rewrite W, (switch_writes_key d), (switch_writes_key s) by (rewrite ?Ed, ?Es; exact I); cbn [switch_writes]; auto.
Qed.

(* a timed-out request is finished as rejected (after the repair ff31fd9): the only coordination writes of the
   iteration are the removal of the request and - when that succeeded - its record under last_rejected_switch;
   nothing else is attempted *)
Theorem timed_out_request_is_rejected cfg env m cs active master sw tr o :
  sw_initiated_at sw <> 0 ->
  runs (handle_switchover cfg env m cs active master sw) tr o ->
  forall e0 tr', tr = e0 :: tr' -> c_switchover_timeout cfg < now_val e0 - sw_initiated_at sw ->
  exists t rc,
    let rec := with_result sw false t rc in
    match switch_writes tr with
    | [d] => ev_call d = DcsDelete PSwitch /\ ev_resp d <> ROk
    | [d; s] => ev_call d = DcsDelete PSwitch /\ ev_resp d = ROk /\ ev_call s = DcsSet PLastRejected (VSwitch rec)
    | _ => False
    end.
Proof.
  intros Hi. revert tr o. unfold handle_switchover. refine (holds_now _ _ _ _). intros e Ec.
  destruct (negb (sw_initiated_at sw =? 0) && (c_switchover_timeout cfg <? now_val e - sw_initiated_at sw)) eqn:C.
  - intros t o H e0 tr' E _. injection E as <- <-. apply runs_bind_ret in H. destruct H as [o1 H].
    cbn [switch_writes]. rewrite Ec. exact (finish_switchover_records _ _ _ _ H).
  - intros t o _ e0 tr' E Ht. injection E as <- <-. apply andb_false_iff in C.
    destruct C as [C|C]; [apply negb_false_iff, Z.eqb_eq in C; destruct (Hi C)|apply Z.ltb_ge in C; lia].
Qed.

Definition frozen_call (c : call) : Prop :=
  match c with FileExists _ | FileWrite 3%N | DcsGet PMaintenance => True | _ => False end.

(* the paused loop: while the record exists and does not ask to leave (or cannot be read) the process only
   keeps its marker file and re-reads the record; its memory is untouched *)
Theorem state_maintenance_frozen cfg env m tr n m' :
  runs (state_maintenance cfg env m) tr (Done (n, m')) ->
  (forall e, In e tr -> ev_call e = DcsGet PMaintenance ->
     ev_resp e <> RErr ENotFound /\ forall mt, ev_resp e = RVal (VMaint mt) -> mt_should_leave mt = false) ->
  n = NxMaintenance /\ m' = m /\ Forall (fun e => frozen_call (ev_call e)) tr.
Proof.
  pose (Psi := fun (tr : trace) (r : mgr_next * mgr_mem) =>
    (forall e, In e tr -> ev_call e = DcsGet PMaintenance ->
       ev_resp e <> RErr ENotFound /\ forall mt, ev_resp e = RVal (VMaint mt) -> mt_should_leave mt = false) ->
    fst r = NxMaintenance /\ snd r = m /\ Forall (fun e => frozen_call (ev_call e)) tr).
  apply (returns_runs _ Psi). unfold state_maintenance.
  apply returns_bind. intros fe t0 R0. apply returns_bind. intros u t1 R1.
  assert (F0 : Forall (fun e => frozen_call (ev_call e)) t0) by (refine (allcalls_sound (fun _ c => frozen_call c) _ _ _ _ R0); walk ltac:(exact I)).
  assert (F1 : Forall (fun e => frozen_call (ev_call e)) t1) by (refine (allcalls_sound (fun _ c => frozen_call c) _ _ _ _ R1); walk ltac:(exact I)).
  apply returns_do. intros e1 Ec1.
  assert (STAY : Psi (t0 ++ t1 ++ [e1]) (NxMaintenance, m)).
  { intros _. split; [reflexivity|]. split; [reflexivity|]. apply Forall_app. split; [exact F0|]. apply Forall_app. split; [exact F1|].
    constructor; [rewrite Ec1; exact I|constructor]. }
  (* a record that asks to leave, or none, contradicts the assumption on this very read *)
  assert (LEAVE : ev_resp e1 = RErr ENotFound \/ (exists mt, ev_resp e1 = RVal (VMaint mt) /\ mt_should_leave mt = true) ->
     forall t r, Psi (t0 ++ t1 ++ e1 :: t) r).
  { intros L t r Hm. exfalso. destruct (Hm e1 (in_or_app _ _ _ (or_intror (in_elt _ _ _))) Ec1) as [Hnf Hl].
    destruct L as [L|(mt & L & K)]; [exact (Hnf L)|]. rewrite (Hl mt L) in K. discriminate K. }
  apply (maint_record_cases (ev_resp e1) _ _ _ (fun p => returns p _)).
  - intros mt Er. destruct (mt_should_leave mt) eqn:El; [apply returns_any, LEAVE; right; exists mt; auto|apply returns_ret; exact STAY].
  - intros Er. apply returns_any, LEAVE. left. exact Er.
  - intros _. apply returns_ret. exact STAY.
Qed.

Definition registry_read (c : call) : Prop :=
  match c with DcsConnected | DcsChildren PHaNodes | DcsChildren PCascadeNodes | DcsGet (PCascadeNode _) | DcsGet PMaintenance => True | _ => False end.

(* candidates follow only after the acknowledgement, and then do nothing else *)
Theorem state_candidate_follows m tr n m' :
  runs (state_candidate m) tr (Done (n, m')) ->
  (exists e mt, In e tr /\ ev_call e = DcsGet PMaintenance /\ ev_resp e = RVal (VMaint mt) /\ mt_paused mt = true /\ mt_light mt = false) ->
  n = NxMaintenance /\ Forall (fun e => registry_read (ev_call e)) tr.
Proof.
  intros H (em & mt & Hin & Ecm & Erm & Hp & Hl). revert Hin.
  pose (G := fun (tr : trace) (r : mgr_next * mgr_mem) => fst r = NxMaintenance /\ Forall (fun e => registry_read (ev_call e)) tr).
  refine (returns_runs _ (fun tr r => In em tr -> G tr r) _ _ _ H).
  clear tr n m' H. unfold state_candidate. apply returns_do. intros e0 Ec0.
  assert (N0 : e0 <> em) by (intros ->; rewrite Ec0 in Ecm; discriminate Ecm).
  destruct (negb _); [apply returns_ret; intros [E|[]]; destruct (N0 E)|].
  apply returns_bind. intros u t1 R1.
  (* the registry refresh does not read the maintenance record: the given read comes after it *)
  assert (F1 : Forall (fun e => registry_read (ev_call e) /\ ev_call e <> DcsGet PMaintenance) t1).
  { refine (allcalls_sound (fun _ c => registry_read c /\ c <> DcsGet PMaintenance) _ _ _ _ R1).
    apply update_hosts_calls; intros; (split; [exact I|discriminate]). }
  apply (returns_conseq _ (fun t r => In em t -> G t r)).
  { intros t r K [E|Hi]; [destruct (N0 E)|]. apply in_app_or in Hi. destruct Hi as [Hi|Hi].
    - rewrite Forall_forall in F1. destruct (proj2 (F1 _ Hi) Ecm).
    - destruct (K Hi) as [E F]. split; [exact E|]. constructor; [rewrite Ec0; exact I|]. apply Forall_app. split; [|exact F].
      eapply Forall_impl; [|exact F1]. intros e [He _]. exact He. }
  case (negb (fst u)); [apply returns_ret; intros []|]. apply returns_do. intros e1 Ec1.
  (* only an acknowledged full maintenance ends the iteration here; every other answer returns or asks for the lock,
     and then the given read is none of the events *)
  assert (REST : e1 <> em -> forall p : prog (mgr_next * mgr_mem), allcalls (fun _ c => c <> DcsGet PMaintenance) p ->
    returns p (fun t r => In em (e1 :: t) -> G (e1 :: t) r)).
  { intros Ne p A t [r|s] R; [|exact I]. intros [E|Hi]; [destruct (Ne E)|].
    pose proof (allcalls_sound _ _ A _ _ R) as F. rewrite Forall_forall in F. destruct (F _ Hi Ecm). }
  apply (maint_record_cases (ev_resp e1) _ _ _ (fun p => returns p _)).
  - intros mt1 Er1. destruct (mt_paused mt1 && negb (mt_light mt1)) eqn:Em.
    + apply returns_ret. intros _. split; [reflexivity|]. constructor; [rewrite Ec1; exact I|constructor].
    + apply REST; [|walk ltac:(first [exact I|discriminate])]. intros ->. rewrite Erm in Er1. injection Er1 as <-. rewrite Hp, Hl in Em. discriminate Em.
  - intros Er1. apply REST; [|walk ltac:(first [exact I|discriminate])]. intros ->. rewrite Erm in Er1. discriminate Er1.
  - intros Nm. apply REST; [|exact I]. intros ->. exact (Nm mt Erm).
Qed.

(* leaving re-learns the master from the servers: ensure_current_master records a master only when exactly
   one alive master exists, and it records that one; several alive masters are reported as such *)
Theorem ensure_current_master_spec cs tr r :
  runs (ensure_current_master cs) tr (Done r) ->
  match r with
  | MrOk mm => alive_masters cs = [mm] /\ exists e, tr = [e] /\ ev_call e = DcsSet PMaster (VHost mm) /\ ev_resp e = ROk
  | MrMany => 2 <= Z.of_nat (length (alive_masters cs)) /\ tr = []
  | MrNone => alive_masters cs = [] /\ tr = []
  | MrErr => exists mm, alive_masters cs = [mm] /\ exists e, tr = [e] /\ ev_call e = DcsSet PMaster (VHost mm) /\ ev_resp e <> ROk
  end.
Proof.
  unfold ensure_current_master. destruct (alive_masters cs) as [|a [|b rest]] eqn:Ea.
  - intros H. apply run_ret in H. destruct H as [-> <-]. auto.
  - intros H. destruct (prim_runs_bind _ _ _ _ _ _ (prim_dcs_set _ _ _) H) as (e & tr' & x & -> & Ec & R1 & R2).
    apply run_ret in R2. destruct R2 as [-> <-]. apply dcs_set_done in R1. destruct x as [x|].
    + exists a. split; [reflexivity|]. exists e. split; [reflexivity|]. split; [exact Ec|]. intros K. apply R1 in K. discriminate K.
    + split; [reflexivity|]. exists e. split; [reflexivity|]. split; [exact Ec|]. apply R1. reflexivity.
  - intros H. apply run_ret in H. destruct H as [-> <-]. split; [cbn [length]; lia|reflexivity].
Qed.

(* C09, what a returning run of leave_maintenance has done, by its code: success means that the one alive master was
   recorded, the active list read back was non-empty and only then the record was removed; with several alive
   masters (code 90030) the mode is kept and the emergency marker raised *)
Definition leave_post (tr : trace) (r : option Z * mgr_mem) : Prop :=
  match fst r with
  | None => exists cs mm, alive_masters cs = [mm] /\
      has_ev tr (fun e => ev_call e = DcsSet PMaster (VHost mm) /\ ev_resp e = ROk) /\
      has_ev tr (fun e => ev_call e = DcsGet PActiveNodes /\ exists h l, ev_resp e = RVal (VHosts (h :: l))) /\
      has_ev tr (fun e => ev_call e = DcsDelete PMaintenance /\ ev_resp e = ROk)
  | Some c => c = 90030 -> has_ev tr (fun e => ev_call e = FileWrite f_emerge) /\ ~ has_ev tr (fun e => ev_call e = DcsDelete PMaintenance)
  end.

Lemma leave_maintenance_returns cfg env m : returns (leave_maintenance cfg env m) leave_post.
Proof.
  assert (OTHER : forall c x t, (c =? 90030) = false -> leave_post t (Some c, x)) by (intros c x t K E; apply Z.eqb_neq in K; destruct (K E)).
  unfold leave_maintenance. apply returns_bind. intros [ok m1] t1 R1.
  assert (F1 : Forall (fun e => ev_call e <> DcsDelete PMaintenance) t1).
  { refine (allcalls_sound (fun _ c => c <> DcsDelete PMaintenance) _ _ _ _ R1). apply update_hosts_calls; intros; discriminate. }
  case (negb ok); [apply returns_ret, OTHER; reflexivity|].
  apply returns_bind. intros cs t2 R2.
  assert (F2 : Forall (fun e => ev_call e <> DcsDelete PMaintenance) t2).
  { eapply Forall_impl; [|exact (allcalls_sound _ _ (c_cluster_state (fun c => match c with Now | Sql _ _ => true | _ => false end) eq_refl (fun _ _ _ => eq_refl) _ _) _ _ R2)].
    intros e K E. unfold ev_ok in K. rewrite E in K. discriminate K. }
  apply returns_bind. intros mr t3 R3. apply ensure_current_master_spec in R3. destruct mr as [mm| | |].
  2:{ destruct R3 as [_ ->]. apply returns_do. intros e Ec. apply returns_ret. intros _. split.
      - do 2 apply has_ev_appr. apply has_ev_here. exact Ec.
      - apply no_ev_Forall. apply Forall_app. split; [exact F1|]. apply Forall_app. split; [exact F2|].
        constructor; [rewrite Ec; discriminate|constructor]. }
  2,3: apply returns_ret, OTHER; reflexivity.
  destruct R3 as [Ea (e & E3 & Ec & Er)].
  (* the master is recorded: what is left cannot end with 90030, and ends well only after its two last steps *)
  pose (Q := fun (t : trace) (r : option Z * mgr_mem) => match fst r with
    | None => has_ev t (fun e => ev_call e = DcsGet PActiveNodes /\ exists h l, ev_resp e = RVal (VHosts (h :: l))) /\
              has_ev t (fun e => ev_call e = DcsDelete PMaintenance /\ ev_resp e = ROk)
    | Some c => c <> 90030 end).
  apply (returns_conseq _ Q).
  { intros t [[c|] x]; [intros K E; destruct (K E)|]. intros [A B]. exists cs, mm. split; [exact Ea|].
    split; [do 2 apply has_ev_appr; rewrite E3; apply has_ev_here; auto|].
    split; do 3 apply has_ev_appr; assumption. }
  clear R1 F1 R2 F2 OTHER.
  assert (DEAD : forall c x t, (c =? 90030) = false -> Q t (Some c, x)) by (intros c x t K; apply Z.eqb_neq in K; exact K).
  apply returns_bind. intros ocsd t4 _. destruct ocsd as [csd|]; [|apply returns_ret, DEAD; reflexivity].
  cbn [tail_envs]. apply returns_bind. intros rm t5 _. apply returns_bind. intros cs2 t6 _. apply returns_bind. intros ua t7 _.
  case (fst ua); [|intros _; apply returns_ret, DEAD; reflexivity].
  apply returns_do. intros ea Eca.
  apply (active_list_cases (ev_resp ea) _ _ _ (fun p => returns p _)); [intros h0 l0 Era|apply returns_ret, DEAD; reflexivity..].
  apply (holds_prim_bind _ _ _ _ _ (prim_dcs_delete _ _)). intros ed a Ecd Rd. apply dcs_delete_done in Rd.
  apply returns_ret. destruct a as [x|]; [apply DEAD; reflexivity|]. split.
  - do 4 apply has_ev_appr. apply has_ev_here. split; [exact Eca|]. exists h0, l0. exact Era.
  - do 4 apply has_ev_appr. apply has_ev_tl, has_ev_here. split; [exact Ecd|]. apply Rd. reflexivity.
Qed.

(* C03, application half: a manager iteration that is not told it holds the lock issues nothing after asking *)
Theorem no_lock_no_action cfg env m tr o :
  runs (manager_gates cfg env m) tr o ->
  match tr with
  | e0 :: e1 :: rest =>
      ev_call e0 = DcsConnected /\ ev_call e1 = LockAcquire /\
      (ev_resp e1 <> RBool true -> rest = [] /\ o = Done (GNext NxCandidate, m))
  | [e0] => ev_call e0 = DcsConnected /\ o = Done (GNext NxLost, m)
  | [] => False
  end.
Proof.
  revert tr o. unfold manager_gates. cbn [bind]. apply holds_do. intros e0 _ Ec0.
  destruct (negb _); [apply holds_ret; auto|].
  apply (holds_prim_bind _ _ _ _ _ (prim_lock_acquire _)). intros e1 l Ec1 R1. destruct l; cbn [negb].
  - intros t o _. split; [exact Ec0|]. split; [exact Ec1|]. intros Hn. destruct Hn. apply (lock_acquire_done _ _ _ R1). reflexivity.
  - apply holds_ret. auto.
Qed.

Lemma np_start_timing_at n t : nopanic (start_timing_at n t).
Proof. unfold start_timing_at, start_timing_now. walk ltac:(exact I). Qed.
Lemma np_approve cfg cs msd active m master : nopanic (approve_failover cfg cs msd active m master).
Proof. unfold approve_failover, approve_pre, approve_tail. walk ltac:(exact I). Qed.
Lemma np_issue master : nopanic (issue_failover master).
Proof. unfold issue_failover. walk ltac:(exact I). Qed.
Lemma np_fd_clock m master : nopanic (fd_clock m master).
Proof. unfold fd_clock. walk ltac:(first [exact I|apply np_start_timing_at]). Qed.
Lemma np_failure_detection cfg cs msd active m master light : nopanic (failure_detection cfg cs msd active m master light).
Proof.
  unfold failure_detection. destruct (_ || _).
  - apply nopanic_bind; [apply np_fd_clock|]. intros m1. destruct light; [exact I|]. walk ltac:(first [exact I|apply np_approve|apply np_issue]).
  - walk ltac:(first [exact I|apply np_stop_timing]).
Qed.

(* with the recorded master present in both views (what the repaired stateManager guarantees before it gets
   here) failure detection and the suspicious-master guard cannot crash *)
Theorem after_requests_nopanic cfg cs csd active m master light msd ms :
  assoc master csd = Some msd -> assoc master cs = Some ms -> nopanic (after_requests cfg cs csd active m master light).
Proof.
  intros Hd Hs. unfold after_requests. rewrite Hd. apply nopanic_bind; [apply np_failure_detection|].
  intros [b mm]. cbn [fst snd]. destruct b; [exact I|]. rewrite Hs. destruct (negb (ns_ping_ok ms)); exact I.
Qed.

Theorem state_candidate_nopanic m : nopanic (state_candidate m).
Proof. unfold state_candidate. walk ltac:(first [exact I|apply np_update_hosts]). Qed.

(* switching optimisation off before a switchover (after the repair 923b14a: unregistered members of the
   active list are skipped) cannot crash once the old master is a registered host - the argument [true], which the
   repaired stateManager (d1e5675) establishes - whatever the active list and the optimisation registry name *)
Theorem disable_all_nopanic master nodes : nopanic (opt_disable_all_k true master nodes).
Proof.
  unfold opt_disable_all_k, opt_disable_all. walk ltac:(first [exact I|apply nopanic_forM; intros h _]).
  unfold opt_disable, set_repl_settings. walk ltac:(exact I).
Qed.

(* enabling semi-sync on the joining replicas (after the repair becaa66) cannot crash, whatever the
   cluster view contains: a host without replica state or a recorded master without master state
   fails to join *)
Theorem enable_loop_nopanic env ms l : forall w active, nopanic (enable_loop env ms l w active).
Proof.
  induction l as [|h r IH]; intros w active; cbn [enable_loop]; [exact I|].
  unfold enable_semi_sync_on_slave, restart_replica, restart_io, set_default_repl_settings. walk ltac:(first [exact I|apply IH]).
Qed.

(* what still crashes (known finding C20-P1): re-pointing a server at itself *)
Theorem change_master_to_itself_panics cfg h : runs (perform_change_master cfg h h) [] (Panicked 2079).
Proof. unfold perform_change_master. rewrite N.eqb_refl. cbn. auto. Qed.
