From Coq Require Import ZArith NArith Bool List Lia.
From Mysync Require Import Gtid.GtidSet Base.Prog Base.ProgFacts Base.Config Procs.NodeOps Procs.ActiveNodes Proofs.NodeOpsProofs.
Import ListNotations.
Open Scope Z_scope.

Lemma prim_now s : prim s Now (now_ s). Proof. prim_tac. Qed.
Lemma prim_hosts_on_recovery s : prim s (DcsChildren PRecoveryDir) (hosts_on_recovery s). Proof. prim_tac. Qed.
Lemma prim_binlogs s h : prim s (Sql h SBinlogs) (binlogs_ s h). Proof. prim_tac. Qed.
Lemma prim_an_opt_enable h : prim 1156 (DcsCreate (POptNode h) (VOpt false)) (opt_enable h). Proof. prim_tac. Qed.
Lemma prim_set_active_nodes s l : prim s (DcsSet PActiveNodes (VHosts l)) (set_active_nodes s l). Proof. prim_tac. Qed.
Lemma prim_get_active_nodes s : prim s (DcsGet PActiveNodes) (get_active_nodes s). Proof. prim_tac. Qed.
Lemma prim_dcs_create_tolerant s p v : prim s (DcsCreate p v) (dcs_create_tolerant s p v). Proof. prim_tac. Qed.
#[export] Hint Resolve prim_now prim_hosts_on_recovery prim_binlogs prim_an_opt_enable prim_set_active_nodes prim_get_active_nodes
  prim_dcs_create_tolerant : prim.

Lemma mem_host_In h l : mem_host h l = true <-> In h l.
Proof.
  unfold mem_host. rewrite existsb_exists. split.
  - intros (x & Hi & E). apply N.eqb_eq in E. subst. exact Hi.
  - intros Hi. exists h. split; [exact Hi|apply N.eqb_refl].
Qed.
Lemma filter_out_In h a b : In h (filter_out a b) -> In h a.
Proof. unfold filter_out. intros H. apply filter_In in H. tauto. Qed.
Lemma filter_out_nil_incl a b : filter_out a b = [] -> forall h, In h a -> In h b.
Proof.
  unfold filter_out. intros H h Hi. destruct (mem_host h b) eqn:E; [apply mem_host_In; exact E|].
  assert (In h (filter (fun x => negb (mem_host x b)) a)) as K by (apply filter_In; rewrite E; auto).
  rewrite H in K. destruct K.
Qed.
Lemma assoc_some_in {V} h (v : V) l : assoc h l = Some v -> In (h, v) l.
Proof.
  induction l as [|[k w] r IH]; cbn [assoc]; [discriminate|]. destruct (N.eqb_spec h k) as [->|_].
  - intros E. inversion E. left. reflexivity.
  - intros E. right. exact (IH E).
Qed.

Definition an_stmt_ok (st : stmt) : bool :=
  match st with
  | SPing | SGtidExecuted | SBinlogs | SReplSettings
  | SSemiDisable | SSemiSetSlave | SSemiSetMaster | SSetWaitCount _
  | SStopIO | SStartIO | SStopRepl | SStartRepl | SSetFlush _ | SSetSyncBinlog _ => true
  | _ => false
  end.
Definition an_call_ok (c : call) : Prop :=
  match c with
  | Sql _ st => an_stmt_ok st = true
  | DcsChildren PRecoveryDir | DcsSet PActiveNodes _ | DcsCreate (POptNode _) _ | Now => True
  | _ => False
  end.

(* Only the spine of the update pings the master or publishes the list.  What lies below it is walked once,
   for the footprint and for "the eviction monitor does not see it" together. *)
Definition ev_calm (c : call) : Prop :=
  match c with
  | Sql _ SPing => False
  | DcsSet PActiveNodes _ => False
  | _ => True
  end.
Definition an_inner (c : call) : Prop := an_call_ok c /\ ev_calm c.
(* leaves of the walks: a call fits by computation, a sub-procedure by its lemma (hint database [an_inner]) *)
Create HintDb an_inner discriminated.
Ltac inner_leaf := first [exact I | exact (conj I I) | exact (conj eq_refl I) | solve [auto with nocore an_inner]].

Lemma in_calc_active_loop cfg env rec mg l : forall mem, allcalls (fun _ c => an_inner c) (calc_active_loop cfg env rec mg mem l).
Proof.
  induction l as [|[h ns] r IH]; intros mem; cbn [calc_active_loop]; [exact I|]. unfold calc_active_host. walk inner_leaf.
Qed.
#[local] Hint Resolve in_calc_active_loop : an_inner.

Lemma in_calc_active_nodes cfg env mem : allcalls (fun _ c => an_inner c) (calc_active_nodes cfg env mem).
Proof. unfold calc_active_nodes. walk inner_leaf. Qed.

Lemma in_lag_loop cfg env bl l : forall ina lag pos, allcalls (fun _ c => an_inner c) (lag_loop cfg env bl l ina lag pos).
Proof. induction l as [|h r IH]; intros ina lag pos; cbn [lag_loop]; walk inner_leaf. Qed.
#[local] Hint Resolve in_lag_loop : an_inner.

Lemma in_calc_changes cfg env active mem : allcalls (fun _ c => an_inner c) (calc_changes cfg env active mem).
Proof. unfold calc_changes. walk inner_leaf. Qed.

Lemma in_adjust master ms w : allcalls (fun _ c => an_inner c) (adjust_semi_sync_on_master master ms w).
Proof. unfold adjust_semi_sync_on_master. walk inner_leaf. Qed.

Lemma in_disable_slaves ina lag : allcalls (fun _ c => an_inner c) (disable_semi_sync_on_slaves ina lag).
Proof.
  unfold disable_semi_sync_on_slaves, disable_semi_sync_on_slave, restart_io. cbn [allcalls]. split.
  - apply (all_branches_map _ ina (fun h => h)). intros h _. walk inner_leaf.
  - intros _. apply allcalls_forM_. intros h _. walk inner_leaf.
Qed.

Lemma in_enable_loop env ms l : forall w active, allcalls (fun _ c => an_inner c) (enable_loop env ms l w active).
Proof.
  induction l as [|h r IH]; intros w active; cbn [enable_loop]; [exact I|].
  unfold enable_semi_sync_on_slave, restart_replica, restart_io, set_default_repl_settings. walk inner_leaf.
Qed.
#[local] Hint Resolve in_calc_active_nodes in_calc_changes in_adjust in_disable_slaves in_enable_loop : an_inner.

Lemma in_disable_unneeded l :
  all_branches (allcalls (fun _ c => an_inner c)) (map (fun '(h, ns) => (h, disable_semi_sync_if_not_needed h ns)) l).
Proof.
  induction l as [|[h ns] r IH]; [exact I|]. split; [|exact IH]. unfold disable_semi_sync_if_not_needed. walk inner_leaf.
Qed.

Section Evict.
Variable master : host.
Variable old : list host.

Definition ev_step (st : bool) (c : call) (r : resp) : bool :=
  st || match c, r with Sql h SPing, RBool true => N.eqb h master | _, _ => false end.
Definition ev_ok (st : bool) (c : call) : Prop :=
  match c with
  | DcsSet PActiveNodes (VHosts l) => filter_out old l = [] \/ st = true
  | DcsSet PActiveNodes _ => False
  | _ => True
  end.

Lemma inner_unseen st c : an_inner c -> ev_ok st c /\ neutral bool ev_step c.
Proof.
  intros [_ Hq]. split.
  - destruct c; cbn in *; auto. destruct p; auto. destruct Hq.
  - intros st0 r. unfold ev_step. destruct c; try (rewrite orb_false_r; reflexivity).
    destruct s; try (rewrite orb_false_r; reflexivity). destruct Hq.
Qed.

(* what lies below the spine is skipped, the monitor staying where it is *)
Lemma safe_inner_bind {A B} (p : prog A) (f : A -> prog B) st :
  allcalls (fun _ c => an_inner c) p -> (forall a, safe bool ev_step ev_ok st (f a)) -> safe bool ev_step ev_ok st (bind p f).
Proof. intros H. apply safe_bind_neutral. revert H. apply allcalls_impl. intros _ c. apply inner_unseen. Qed.

(* the end of both arms of the update: a list that drops members is published only after the master answered a ping *)
Lemma safe_shrink {A} s act (x : A) (y : oerr -> A) st :
  safe bool ev_step ev_ok st
    (ok <- can_shrink master old act ;; if negb ok then Ret x else e <- set_active_nodes s act ;; Ret (y e)).
Proof.
  unfold can_shrink. destruct (filter_out old act) eqn:Ef; cbn [bind ping negb].
  - eapply prim_safe_bind; [solve [auto with prim]|left; exact Ef|]. intros; exact I.
  - split; [exact I|]. intros r. destruct r; try exact I. destruct b; [|exact I]. cbn [bind fst negb].
    eapply prim_safe_bind; [solve [auto with prim]| |intros; exact I].
    right. unfold ev_step. rewrite N.eqb_refl. apply orb_true_r.
Qed.
End Evict.

(* eviction guard: members are evicted only after a successful ping of the master *)
Theorem evict_needs_master cfg env mem :
  safe bool (ev_step (ae_master env)) (ev_ok (ae_old_active env)) false (update_active_nodes cfg env mem).
Proof.
  unfold update_active_nodes. generalize false. intros st. destruct (assoc (ae_master env) (ae_state env)) as [ms|]; [|exact I].
  apply safe_inner_bind; [apply in_calc_active_nodes|]. intros [[active|] mem1]; [|exact I].
  destruct (negb (c_semi_sync cfg)).
  - split; [|intros _; apply safe_shrink].
    refine (all_branches_impl _ _ _ _ (in_disable_unneeded (ae_state env))). intros b. apply allcalls_impl. intros _ c. apply inner_unseen.
  - apply safe_inner_bind; [apply in_calc_changes|]. intros [[ch|] mem2]; [|exact I].
    eapply prim_safe_bind; [solve [auto with prim]|exact I|]. intros r [[|] e]; [|exact I]. cbn [fst snd negb].
    apply safe_inner_bind; [destruct (if c_master_first_adjust cfg then _ else _); [apply in_adjust|exact I]|].
    intros [e1|]; [exact I|].
    apply safe_inner_bind; [apply in_disable_slaves|]. intros _.
    apply safe_inner_bind; [apply in_enable_loop|]. intros [w' active'].
    apply safe_inner_bind; [|intros _; apply safe_shrink].
    destruct (if c_master_first_adjust cfg then _ else _); [|exact I]. apply allcalls_bind; [apply in_adjust|intros; exact I].
Qed.

Definition on_recovery (rec : option (list host)) (h : host) : bool :=
  match rec with Some l => mem_host h l | None => false end.

Theorem calc_active_host_member cfg env rec mg mem h ns :
  rets (fun x => fst x = true ->
    h = ae_master env \/
    (ns_is_cascade ns = false /\ on_recovery rec h = false /\
     (ns_ping_ok ns = true ->
        exists rs, ns_slave ns = Some rs /\ repl_state_of rs = ReplRunning /\ split_brained (rs_executed rs) mg (ae_master_uuid env) = false) /\
     (ns_ping_ok ns = false -> In h (ae_old_active env))))
  (calc_active_host cfg env rec mg mem (h, ns)).
Proof.
  unfold calc_active_host, on_recovery. destruct (N.eqb_spec h (ae_master env)) as [->|Hne]; [intros _; left; reflexivity|].
  destruct (ns_is_cascade ns) eqn:Ec; [discriminate|].
  destruct (match rec with Some l => mem_host h l | None => false end) eqn:Er; [discriminate|].
  destruct (ns_ping_ok ns) eqn:Ep; cbn [negb].
  - destruct (ns_slave ns) as [rs|]; [|discriminate]. destruct (repl_state_of rs) eqn:Es; try discriminate.
    destruct (split_brained (rs_executed rs) mg (ae_master_uuid env)) eqn:Esb; [discriminate|].
    intros _. right. repeat split; [|discriminate]. intros _. exists rs. auto.
  - match goal with |- rets ?Q _ => assert (G : forall m, rets Q (Ret (mem_host h (ae_old_active env), m))) end.
    { intros m K. right. repeat split; [discriminate|]. intros _. apply mem_host_In. exact K. }
    destruct (assoc h (ae_state_dcs env)) as [dns|]; [|destruct (ns_ping_dubious ns); [apply G|exact I]].
    destruct (ns_ping_dubious ns || ns_ping_ok dns); [apply G|].
    apply rets_bind. intros t1. apply rets_bind. intros t2. destruct (_ <? _); [apply G|discriminate].
Qed.

Lemma inner_calls {A} (p : prog A) : allcalls (fun _ c => an_inner c) p -> allcalls (fun _ c => an_call_ok c) p.
Proof. apply allcalls_impl. intros _ c H. exact (proj1 H). Qed.

Theorem update_active_nodes_calls cfg env mem : allcalls (fun _ c => an_call_ok c) (update_active_nodes cfg env mem).
Proof.
  unfold update_active_nodes, can_shrink.
  walk ltac:(first [exact I|reflexivity|apply inner_calls; solve [auto with nocore an_inner]]).
  (* left: the parallel section of the case without semi-sync, and what follows it *)
  split; [|intros _; walk ltac:(first [exact I|reflexivity])].
  refine (all_branches_impl _ _ _ _ (in_disable_unneeded (ae_state env))). intros b. apply inner_calls.
Qed.

(* SetRecovery: the host leaves the published list before the mark is created *)
Definition sr_step (h : host) (st : bool) (c : call) (r : resp) : bool :=
  st || match c, r with DcsSet PActiveNodes (VHosts l), ROk => negb (mem_host h l) | _, _ => false end.
Definition sr_ok (h : host) (st : bool) (c : call) : Prop :=
  match c with
  | DcsCreate (PRecovery h') _ => h' = h /\ st = true
  | _ => True
  end.
Theorem set_recovery_order h : safe bool (sr_step h) (sr_ok h) false (set_recovery h).
Proof.
  unfold set_recovery.
  apply safe_bind.
  { eapply prim_safe; [solve [auto with prim]|exact I]. }
  intros st [l e]. destruct e; [exact I|].
  unfold set_active_nodes. cbn [bind safe]. split; [exact I|]. intros r0. destruct r0; try exact I. cbn [bind].
  (* the list was published without h: the monitor is in state true from here on *)
  assert (E : sr_step h st (DcsSet PActiveNodes (VHosts (filter (fun n => negb (N.eqb n h)) l))) ROk = true).
  { unfold sr_step. replace (mem_host h (filter _ l)) with false; [apply orb_true_r|]. symmetry. apply not_true_iff_false.
    intros K. apply mem_host_In, filter_In in K. destruct K as [_ K]. rewrite N.eqb_refl in K. discriminate K. }
  rewrite E. eapply prim_safe_bind; [solve [auto with prim]|exact I|]. intros r1 [e3|]; [exact I|].
  eapply prim_safe; [solve [auto with prim]|]. split; reflexivity.
Qed.

