From Coq Require Import ZArith NArith Bool List Lia.
From Mysync Require Import Gtid.GtidSet Proofs.GtidProofs Pure.Desirable.
Import ListNotations.
Open Scope Z_scope.

Lemma prio_step_pick mx p : prio_step mx p = mx \/ prio_step mx p = p.
Proof.
  unfold prio_step. destruct (_ <? _); [auto|]. destruct (_ =? _); [|auto]. apply recent_step_pick.
Qed.

Lemma most_priority_in ps top : most_priority ps = Some top -> In top ps.
Proof. destruct ps as [|p0 r]; cbn; [discriminate|]. intros [= <-]. apply (fold_left_pick prio_step prio_step_pick). Qed.
Lemma most_priority_none ps : most_priority ps = None <-> ps = [].
Proof. destruct ps; cbn; split; congruence. Qed.

Lemma filter_len_le {A} (f : A -> bool) l : (length (filter f l) <= length l)%nat.
Proof. induction l as [|y l IH]; cbn; [lia|]. destruct (f y); cbn; lia. Qed.
Lemma filter_length_lt {A} (f : A -> bool) l x : In x l -> f x = false -> (length (filter f l) < length l)%nat.
Proof.
  induction l as [|y l IH]; cbn; [intros []|]. intros [->|Hi] Hf.
  - rewrite Hf. pose proof (filter_len_le f l). lia.
  - destruct (f y); cbn; specialize (IH Hi Hf); lia.
Qed.

(* one round of getMostDesirableNode: the top candidate is taken, or the search goes on among the much fresher ones,
   which are fewer (the top candidate is not among them) *)
Lemma most_desirable_step f ps bound :
  match most_priority ps with
  | None => most_desirable (S f) ps bound = DesNotFound
  | Some top =>
      most_desirable (S f) ps bound = DesFound (p_host top) \/
      exists more, more = filter (fun n => p_lag n <? p_lag top - bound) ps /\ more <> [] /\
        most_desirable (S f) ps bound = most_desirable f more bound /\ (0 <= bound -> (length more < length ps)%nat)
  end.
Proof.
  cbn [most_desirable]. destruct (most_priority ps) as [top|] eqn:Et; [|reflexivity].
  destruct (p_lag top <=? bound); [left; reflexivity|]. destruct (filter _ ps) as [|m0 more] eqn:Em; [left; reflexivity|].
  right. exists (m0 :: more). rewrite <- Em. split; [reflexivity|]. split; [rewrite Em; discriminate|]. split; [reflexivity|].
  intros Hb. apply (filter_length_lt _ ps top); [apply most_priority_in, Et|]. apply Z.ltb_ge. lia.
Qed.

Theorem most_desirable_terminates : forall fuel ps bound, 0 <= bound -> (length ps < fuel)%nat ->
  most_desirable fuel ps bound <> DesFuel.
Proof.
  induction fuel as [|f IH]; intros ps bound Hb Hl; [lia|]. pose proof (most_desirable_step f ps bound) as S.
  destruct (most_priority ps) as [top|]; [|rewrite S; discriminate].
  destruct S as [->|(more & _ & _ & -> & Hlt)]; [discriminate|]. apply IH; [exact Hb|]. specialize (Hlt Hb). lia.
Qed.

Theorem most_desirable_member : forall fuel ps bound h,
  most_desirable fuel ps bound = DesFound h -> exists p, In p ps /\ p_host p = h.
Proof.
  induction fuel as [|f IH]; intros ps bound h; [discriminate|]. pose proof (most_desirable_step f ps bound) as S.
  destruct (most_priority ps) as [top|] eqn:Et; [|rewrite S; discriminate].
  destruct S as [->|(more & -> & _ & -> & _)]; [intros [= <-]; eauto using most_priority_in|].
  intros H. destruct (IH _ _ _ H) as (p & Hp & Hh). apply filter_In in Hp. exists p. tauto.
Qed.

Theorem most_desirable_notfound_iff : forall fuel ps bound, 0 <= bound -> (length ps < fuel)%nat ->
  (most_desirable fuel ps bound = DesNotFound <-> ps = []).
Proof.
  induction fuel as [|f IH]; intros ps bound Hb Hl; [lia|]. pose proof (most_desirable_step f ps bound) as S.
  destruct (most_priority ps) as [top|] eqn:Et; [|apply most_priority_none in Et; tauto].
  assert (ps <> []) as Hne by (intros ->; discriminate). split; [|tauto]. intros H. exfalso.
  destruct S as [S|(more & _ & Hm & S & Hlt)]; rewrite S in H; [discriminate|]. apply IH in H; [contradiction|exact Hb|]. specialize (Hlt Hb). lia.
Qed.

Theorem most_desirable_never_from : forall fuel ps bound from h,
  most_desirable fuel (filter_out_host ps from) bound = DesFound h -> h <> from.
Proof.
  intros fuel ps bound from h H. destruct (most_desirable_member _ _ _ _ H) as (p & Hp & <-).
  unfold filter_out_host in Hp. apply filter_In in Hp. destruct Hp as [_ Hp].
  apply negb_true_iff, N.eqb_neq in Hp. exact Hp.
Qed.

Theorem most_desirable_top_within_bound : forall fuel ps bound top,
  most_priority ps = Some top -> p_lag top <= bound -> most_desirable (S fuel) ps bound = DesFound (p_host top).
Proof.
  intros fuel ps bound top Et Hl. cbn [most_desirable]. rewrite Et.
  destruct (Z.leb_spec (p_lag top) bound); [reflexivity|lia].
Qed.

Theorem most_desirable_top_or_much_fresher : forall fuel ps bound top h,
  most_priority ps = Some top -> most_desirable fuel ps bound = DesFound h ->
  h = p_host top \/ exists p, In p ps /\ p_host p = h /\ p_lag p < p_lag top - bound.
Proof.
  intros fuel ps bound top h Et. destruct fuel as [|f]; [discriminate|]. pose proof (most_desirable_step f ps bound) as S. rewrite Et in S.
  destruct S as [->|(more & -> & _ & -> & _)]; [intros [= <-]; auto|]. intros H. right.
  destruct (most_desirable_member _ _ _ _ H) as (p & Hp & Hh). apply filter_In in Hp. destruct Hp as [Hp Hl]. apply Z.ltb_lt in Hl. eauto.
Qed.

Definition strictly_more (a b : gtidset) : Prop := subset b a /\ ~ subset a b.

(* one step of the scan: the newcomer q replaces m when it has the higher priority, or the same priority and strictly
   more transactions, or the same priority and transactions and less lag *)
Lemma prio_step_cases m q : wf (p_set m) -> wf (p_set q) ->
  (prio_step m q = q /\ (p_prio m < p_prio q \/ p_prio m = p_prio q /\
     (strictly_more (p_set q) (p_set m) \/ same (p_set q) (p_set m) /\ p_lag q < p_lag m))) \/
  (prio_step m q = m /\ (p_prio q < p_prio m \/ p_prio m = p_prio q /\
     (~ subset (p_set m) (p_set q) \/ same (p_set q) (p_set m) /\ p_lag m <= p_lag q))).
Proof.
  intros Wm Wq. unfold prio_step.
  destruct (Z.ltb_spec (p_prio m) (p_prio q)); [left; split; [reflexivity|left; assumption]|].
  destruct (Z.eqb_spec (p_prio m) (p_prio q)) as [E|]; [|right; split; [reflexivity|lia]].
  destruct (set_equal (p_set q) (p_set m)) eqn:Q.
  - apply set_equal_sound in Q; [|exact Wq]. destruct (Z.ltb_spec (p_lag q) (p_lag m)); [left|right]; auto 6.
  - apply not_true_iff_false in Q. destruct (set_contain (p_set q) (p_set m)) eqn:C.
    + apply set_contain_spec in C; auto. left. split; [reflexivity|]. right. split; [exact E|]. left. split; [exact C|].
      intros K. apply Q, set_equal_complete, subset_antisym; auto.
    + apply not_true_iff_false in C. right. split; [reflexivity|]. right. split; [exact E|]. left.
      intros K. apply C, set_contain_spec; auto.
Qed.

(* what the scan of getMostPriorityNode maximises: priority first, then transactions, then freshness *)
Definition better (mx p : position) : Prop :=
  p_prio p <= p_prio mx /\
  (p_prio p = p_prio mx -> ~ strictly_more (p_set p) (p_set mx) /\ (same (p_set p) (p_set mx) -> p_lag mx <= p_lag p)).

Lemma strictly_more_anti p m q : subset m q -> strictly_more p q -> strictly_more p m.
Proof. intros H [K1 K2]. split; [eapply subset_trans; eauto|]. intros K. apply K2. eapply subset_trans; eauto. Qed.

Lemma better_refl m : better m m.
Proof. split; [lia|]. intros _. split; [intros [_ H]; apply H, subset_refl|lia]. Qed.

Lemma better_step m q p : wf (p_set m) -> wf (p_set q) -> better m p -> better (prio_step m q) p.
Proof.
  intros Wm Wq B. destruct (prio_step_cases m q Wm Wq) as [[-> H]|[-> _]]; [|exact B]. destruct B as [B1 B2].
  destruct H as [H|[E [[S1 S2]|[S L]]]]; [split; [lia|intros; lia]| |]; (split; [lia|]); intros E'; destruct (B2 ltac:(lia)) as [C1 C2]; split.
  - intros K. apply C1. eapply strictly_more_anti; eauto.
  - (* p would have the transactions of q, strictly more than m has *)
    intros K. destruct C1. split; [eapply subset_trans; [exact S1|apply same_subset, same_sym, K]|].
    intros K'. apply S2. eapply subset_trans; [apply same_subset, same_sym, K|exact K'].
  - intros K. apply C1. eapply strictly_more_anti; [apply same_subset, same_sym, S|exact K].
  - intros K. specialize (C2 (same_trans _ _ _ K S)). lia.
Qed.

Lemma better_new m q : wf (p_set m) -> wf (p_set q) -> better (prio_step m q) q.
Proof.
  intros Wm Wq. destruct (prio_step_cases m q Wm Wq) as [[-> _]|[-> H]]; [apply better_refl|].
  destruct H as [H|[E [S|[S L]]]]; [split; [lia|intros; lia]| |]; (split; [lia|]); intros _; split.
  - intros [K _]. exact (S K).
  - intros K. destruct S. apply same_subset, same_sym, K.
  - intros [_ K]. apply K, same_subset, S.
  - intros; lia.
Qed.

Theorem most_priority_better ps top : all_wf ps -> most_priority ps = Some top -> forall p, In p ps -> better top p.
Proof.
  intros Hwf Et p Hp. destruct ps as [|p0 r]; [discriminate|]. injection Et as <-.
  apply (fold_left_dominates prio_step prio_step_pick (fun x => wf (p_set x)) better better_new better_step).
  - apply Hwf. left. reflexivity.
  - apply Forall_forall. intros x Hx. apply Hwf. right. exact Hx.
  - destruct Hp as [<-|Hp]; [left; apply better_refl|right; exact Hp].
Qed.

Theorem most_priority_spec ps top : all_wf ps -> most_priority ps = Some top ->
  In top ps /\
  forall p, In p ps -> p_prio p <= p_prio top /\ (p_prio p = p_prio top -> ~ strictly_more (p_set p) (p_set top)).
Proof.
  intros Hwf Et. split; [apply most_priority_in, Et|]. intros p Hp. destruct (most_priority_better ps top Hwf Et p Hp) as [A B].
  split; [exact A|]. intros E. apply B, E.
Qed.

Lemma prio_step_eq_recent mx p : p_prio mx = p_prio p -> prio_step mx p = recent_step mx p.
Proof.
  intros E. unfold prio_step, recent_step. rewrite E, Z.ltb_irrefl, Z.eqb_refl. reflexivity.
Qed.

Lemma fold_prio_eq_recent l : forall mx, (forall p, In p l -> p_prio p = p_prio mx) ->
  fold_left prio_step l mx = fold_left recent_step l mx.
Proof.
  induction l as [|q l IH]; intros mx H; cbn [fold_left]; [reflexivity|].
  rewrite prio_step_eq_recent by (symmetry; apply H; left; reflexivity).
  apply IH. intros p Hp. rewrite (H p (or_intror Hp)).
  destruct (recent_step_pick mx q) as [->| ->]; [reflexivity|symmetry; apply H; left; reflexivity].
Qed.

Theorem desirable_coincides_with_most_recent : forall fuel ps bound h st,
  (forall p q, In p ps -> In q ps -> p_prio p = p_prio q) ->
  (forall p, In p ps -> p_lag p <= bound) ->
  most_recent ps = RecentFound h st ->
  most_desirable (S fuel) ps bound = DesFound h.
Proof.
  intros fuel ps bound h st Hpr Hlag Hr. destruct ps as [|p0 r]; [discriminate|].
  cbn [most_recent] in Hr. destruct (detect_splitbrain _ _); [discriminate|]. inversion Hr; subst. clear Hr.
  assert (Et : most_priority (p0 :: r) = Some (fold_left recent_step r p0)).
  { cbn. f_equal. apply fold_prio_eq_recent. intros p Hp. apply Hpr; [right; exact Hp|left; reflexivity]. }
  apply most_desirable_top_within_bound; [exact Et|]. apply Hlag. apply (fold_recent_in r p0).
Qed.

(* C14: "among equal priorities it prefers the candidate with more transactions, THEN WITH LESS LAG".
   Of all candidates with the top priority and the same transactions as the chosen one, the chosen one has the least lag. *)
Theorem most_priority_least_lag ps top : all_wf ps -> most_priority ps = Some top ->
  forall p, In p ps -> p_prio p = p_prio top -> same (p_set p) (p_set top) -> p_lag top <= p_lag p.
Proof. intros Hwf Et p Hp E S. apply (most_priority_better ps top Hwf Et p Hp); assumption. Qed.
