(* Two per-procedure guarantees behind convergence clauses whose end-to-end form is decided on the implementation:
   C10 - adjustSemiSyncOnMaster really brings the master's side to the requested setting when it reports success;
   C11 - the repair of a stale master always goes on to mark it, however turning it into a replica went. *)
From Coq Require Import ZArith NArith Bool List Lia.
From Mysync Require Import Base.Prog Base.ProgFacts Procs.ActiveNodes Procs.Repair Proofs.NodeOpsProofs.
Import ListNotations.
Open Scope Z_scope.

Definition ok_call (c : call) (e : event) : Prop := ev_call e = c /\ ev_resp e = ROk.
Theorem adjust_master_brings_setting master ms w tr : 0 < w ->
  runs (adjust_semi_sync_on_master master ms w) tr (Done None) ->
  exists en sl cur, ns_semi ms = Some (en, sl, cur) /\
    (cur = w \/ exists e, In e tr /\ ok_call (Sql master (SSetWaitCount w)) e) /\
    (en = true \/ exists e, In e tr /\ ok_call (Sql master SSemiSetMaster) e).
Proof.
  intros Hw. unfold adjust_semi_sync_on_master. destruct (ns_semi ms) as [[[en sl] cur]|]; [|cbn; intros [_ K]; discriminate K].
  assert (w =? 0 = false) as -> by (apply Z.eqb_neq; lia).
  intros H. exists en, sl, cur. split; [reflexivity|].
  destruct (runs_bind_done _ _ _ _ H) as (t1 & t2 & e1 & R1 & R2 & ->).
  destruct e1 as [x|]; [destruct R2 as [_ K]; discriminate K|].
  split.
  - destruct (cur =? w) eqn:E; [left; apply Z.eqb_eq; exact E|]. right.
    destruct (runs_exec _ _ _ _ _ R1) as (e & oe & -> & K & _ & Ec & Hok). injection K as <-.
    exists e. split; [left; reflexivity|exact (conj Ec (Hok eq_refl))].
  - destruct en; [left; reflexivity|]. right.
    destruct (runs_exec _ _ _ _ _ R2) as (e & oe & -> & K & _ & Ec & Hok). injection K as <-.
    exists e. split; [apply in_or_app; right; left; reflexivity|exact (conj Ec (Hok eq_refl))].
Qed.

Theorem stale_master_marking_attempted cfg env h ns mem tr o :
  ns_is_master ns = true ->
  runs (repair_slave_node cfg env h ns mem) tr o -> (exists a, o = Done a) ->
  exists e, In e tr /\ ev_site e = 20082 /\ ev_call e = DcsGet PActiveNodes.
Proof.
  intros Him H [a ->]. revert H.
  apply (returns_runs _ (fun tr _ => exists e, In e tr /\ ev_site e = 20082 /\ ev_call e = DcsGet PActiveNodes)).
  unfold repair_slave_node. rewrite Him.
  apply returns_bind. intros _ t1 _. apply returns_bind. intros _ t2 _. apply returns_bind. intros _ t3 _.
  (* the first call of SetRecovery; whatever follows, it is in the trace *)
  apply holds_do. intros e Es Ec t o _. destruct o; [|exact I].
  exists e. split; [|auto]. do 3 (apply in_or_app; right). left. reflexivity.
Qed.
