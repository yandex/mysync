From Coq Require Import ZArith Bool List Lia.
From Mysync Require Import Gtid.Interval.
Import ListNotations.
Open Scope Z_scope.

Lemma mem_iv_true g a b : mem_iv g (a, b) = true <-> a <= g < b.
Proof. unfold mem_iv; cbn. rewrite andb_true_iff, Z.leb_le, Z.ltb_lt. tauto. Qed.
Lemma mem_iv_false g a b : mem_iv g (a, b) = false <-> (g < a \/ b <= g).
Proof. unfold mem_iv; cbn. rewrite andb_false_iff, Z.leb_gt, Z.ltb_ge. tauto. Qed.

Lemma mem_cons g i s : mem (i :: s) g = mem_iv g i || mem s g.
Proof. reflexivity. Qed.
Lemma mem_app g s t : mem (s ++ t) g = mem s g || mem t g.
Proof. unfold mem. apply existsb_app. Qed.
Lemma mem_nil g : mem [] g = true <-> False.
Proof. split; [discriminate|intros []]. Qed.
Lemma mem_single g a b : mem [(a, b)] g = true <-> a <= g < b.
Proof. rewrite mem_cons. cbn [mem existsb]. rewrite orb_false_r. apply mem_iv_true. Qed.

Lemma mem_piece g a b : mem (if a <? b then [(a, b)] else []) g = true <-> a <= g < b.
Proof. destruct (Z.ltb_spec a b); [apply mem_single|rewrite mem_nil; lia]. Qed.

Lemma sep_weaken lo lo' s : lo' <= lo -> sep lo s -> sep lo' s.
Proof. destruct s as [|[a b] r]; cbn; [tauto|]. intros Hl (H1 & H2 & H3). repeat split; auto; lia. Qed.

Lemma sep_mem_gt lo s g : sep lo s -> mem s g = true -> lo < g.
Proof.
  revert lo. induction s as [|[a b] r IH]; intros lo Hs; [discriminate|]. destruct Hs as (H1 & H2 & H3).
  rewrite mem_cons, orb_true_iff, mem_iv_true. intros [H|H]; [lia|]. apply (IH b H3) in H. lia.
Qed.
Lemma sep_mem_false lo s g : sep lo s -> g <= lo -> mem s g = false.
Proof. intros Hs Hg. destruct (mem s g) eqn:E; [apply (sep_mem_gt lo s g Hs) in E; lia|reflexivity]. Qed.

(* With this, a statement about the members of a separated list is linear arithmetic over the atoms "g is in the
   tail": destruct those, then lia. *)
Lemma sep_mem_cons lo a b r : sep lo ((a, b) :: r) -> forall g, mem ((a, b) :: r) g = true <-> a <= g < b \/ (b < g /\ mem r g = true).
Proof.
  intros (_ & H2 & H3) g. rewrite mem_cons, orb_true_iff, mem_iv_true. split; [|tauto].
  intros [H|H]; [left; exact H|right; split; [apply (sep_mem_gt b r g H3 H)|exact H]].
Qed.

Lemma sep_tail lo a b r : sep lo ((a, b) :: r) -> sep b r.
Proof. cbn. tauto. Qed.

Lemma normalized_tail i r : normalized (i :: r) -> normalized r.
Proof. destruct i as [a b]. intros [lo H]. exists b. eapply sep_tail; eauto. Qed.

Lemma sepb_spec lo s : sepb lo s = true <-> sep lo s.
Proof.
  revert lo. induction s as [|[a b] r IH]; intros lo; cbn; [tauto|].
  rewrite !andb_true_iff, !Z.ltb_lt, IH. tauto.
Qed.
Lemma normalizedb_spec s : normalizedb s = true <-> normalized s.
Proof.
  destruct s as [|[a b] r]; cbn.
  - split; [intros _; exists 0; exact I|reflexivity].
  - rewrite andb_true_iff, Z.ltb_lt, sepb_spec. split.
    + intros [H1 H2]. exists (Z.pred a). cbn. auto using Z.lt_pred_l.
    + intros [lo (H1 & H2 & H3)]. auto.
Qed.

Lemma contain1_spec s : forall lo x y, sep lo s -> x < y ->
  (contain1 s (x, y) = true <-> forall g, x <= g < y -> mem s g = true).
Proof.
  induction s as [|[a b] r IH]; intros lo x y Hs Hxy.
  - split; [discriminate|]. intros H. apply (H x). lia.
  - setoid_rewrite (sep_mem_cons lo a b r Hs). destruct Hs as (_ & H2 & H3). unfold contain1. cbn [find_first fst snd].
    destruct (Z.leb_spec x b) as [Hxb|Hxb].
    + rewrite andb_true_iff, !negb_true_iff, !Z.ltb_ge. split; [intros [Ha Hb] g Hg; left; lia|].
      (* x is a member, and so would b be if y were beyond it *)
      intros H. pose proof (H x). destruct (Z.le_gt_cases y b); [lia|]. pose proof (H b). lia.
    + specialize (IH b x y H3 Hxy). unfold contain1 in IH. cbn [fst snd] in IH. rewrite IH.
      split; intros H g Hg; specialize (H g Hg); [right; split; [lia|exact H]|destruct H as [H|[_ H]]; [lia|exact H]].
Qed.

Definition nonempty_ivs (s : islice) : Prop := forall i, In i s -> fst i < snd i.

Lemma sep_nonempty lo s : sep lo s -> nonempty_ivs s.
Proof.
  revert lo. induction s as [|[a b] r IH]; intros lo Hs i Hi; [destruct Hi|].
  cbn in Hs. destruct Hs as (H1 & H2 & H3). destruct Hi as [<-|Hi]; [exact H2|eapply IH; eauto].
Qed.
Lemma normalized_nonempty s : normalized s -> nonempty_ivs s.
Proof. intros [lo H]. eapply sep_nonempty; eauto. Qed.

Lemma mem_true_iff s g : mem s g = true <-> exists a b, In (a, b) s /\ a <= g < b.
Proof.
  unfold mem. rewrite existsb_exists. split.
  - intros [[a b] [Hi Hm]]. exists a, b. split; [exact Hi|apply mem_iv_true; exact Hm].
  - intros (a & b & Hi & Hm). exists (a, b). split; [exact Hi|apply mem_iv_true; exact Hm].
Qed.

Theorem slice_contain_spec s sub : normalized s -> nonempty_ivs sub ->
  (slice_contain s sub = true <-> forall g, mem sub g = true -> mem s g = true).
Proof.
  intros [lo Hs] Hne. unfold slice_contain. rewrite forallb_forall. split.
  - intros H g Hg. apply mem_true_iff in Hg. destruct Hg as (a & b & Hi & Hg).
    apply (proj1 (contain1_spec s lo a b Hs (Hne _ Hi)) (H (a, b) Hi) g Hg).
  - intros H [a b] Hi. apply (contain1_spec s lo a b Hs (Hne _ Hi)). intros g Hg. apply H, mem_true_iff. exists a, b. auto.
Qed.

Lemma slice_equal_eq a b : slice_equal a b = true <-> a = b.
Proof.
  revert b. induction a as [|[x y] a IH]; intros [|[x' y'] b]; cbn; try (split; [discriminate|discriminate]); [tauto|].
  unfold iv_eqb; cbn. rewrite !andb_true_iff, !Z.eqb_eq, IH. split.
  - intros [[-> ->] ->]. reflexivity.
  - intros E. inversion E. auto.
Qed.

Lemma sep_ext lo s t : sep lo s -> sep lo t -> (forall g, mem s g = mem t g) -> s = t.
Proof.
  revert lo t. induction s as [|[a b] r IH]; intros lo [|[c d] t'] Hs Ht Hext; [reflexivity| | |].
  - assert (X : mem ((c, d) :: t') c = true) by (apply (sep_mem_cons lo c d t' Ht); destruct Ht; lia). rewrite <- Hext in X. discriminate.
  - assert (X : mem ((a, b) :: r) a = true) by (apply (sep_mem_cons lo a b r Hs); destruct Hs; lia). rewrite Hext in X. discriminate.
  - (* the end points of the first intervals are, or are not, members of both *)
    assert (K : forall g, (a <= g < b \/ (b < g /\ mem r g = true)) <-> (c <= g < d \/ (d < g /\ mem t' g = true))).
    { intros g. rewrite <- (sep_mem_cons lo a b r Hs), <- (sep_mem_cons lo c d t' Ht), Hext. reflexivity. }
    destruct Hs as (_ & H2 & H3), Ht as (_ & K2 & K3).
    assert (a = c /\ b = d) as [<- <-] by (pose proof (K a); pose proof (K b); pose proof (K c); pose proof (K d); lia).
    f_equal. apply (IH b); auto. intros g. destruct (Z.le_gt_cases g b) as [Hg|Hg]; [rewrite !(sep_mem_false b _ g) by assumption; reflexivity|].
    specialize (K g). destruct (mem r g), (mem t' g); (reflexivity || lia).
Qed.

Lemma normalized_ext s t : normalized s -> normalized t -> (forall g, mem s g = mem t g) -> s = t.
Proof.
  intros [l1 H1] [l2 H2] Hext. apply (sep_ext (Z.min l1 l2)); auto; eapply sep_weaken; eauto; lia.
Qed.

(* pieces strictly separated, starting after lo, all inside (lo, hi] *)
Fixpoint within (lo hi : Z) (p : islice) : Prop :=
  match p with
  | [] => True
  | (a, b) :: r => lo < a /\ a < b /\ b <= hi /\ within b hi r
  end.

Lemma within_app lo hi p q : lo <= hi -> within lo hi p -> sep hi q -> sep lo (p ++ q).
Proof.
  revert lo. induction p as [|[a b] r IH]; intros lo Hle Hw Hq; cbn.
  - eapply sep_weaken; [|exact Hq]. exact Hle.
  - cbn in Hw. destruct Hw as (H1 & H2 & H3 & H4). repeat split; auto.
Qed.

Lemma within_weaken lo lo' hi p : lo' <= lo -> within lo hi p -> within lo' hi p.
Proof. destruct p as [|[a b] r]; cbn; [tauto|]. intros Hl (H1 & H2 & H3 & H4). repeat split; auto; lia. Qed.

Lemma within_app_within lo hi p q : lo <= hi -> within lo hi p -> within hi hi q -> within lo hi (p ++ q).
Proof.
  revert lo. induction p as [|[a b] r IH]; intros lo Hle Hw Hq; cbn.
  - eapply within_weaken; eauto.
  - cbn in Hw. destruct Hw as (H1 & H2 & H3 & H4). repeat split; auto.
Qed.

Lemma minus_iv_spec b : forall cur stop lob, sep lob b -> cur < stop ->
  forall p rem, minus_iv cur stop b = (p, rem) ->
  (forall lo, lo < cur -> within lo stop p) /\
  (forall g, mem p g = true <-> (cur <= g < stop /\ mem b g <> true)) /\
  normalized rem /\
  (forall g, stop <= g -> (mem rem g = true <-> mem b g = true)).
Proof.
  induction b as [|[bs be] b' IH]; intros cur stop lob Hb Hcs p rem E; cbn [minus_iv] in E.
  - injection E as <- <-. split; [cbn; lia|]. split; [intros g; rewrite mem_single, mem_nil; lia|]. split; [exists 0; exact I|reflexivity].
  - pose proof (sep_mem_cons lob bs be b' Hb) as M. pose proof Hb as (_ & B2 & B3). pose proof (fun g => sep_mem_gt be b' g B3) as G. destruct (Z.leb_spec be cur).
    { destruct (IH cur stop be B3 Hcs p rem E) as (I1 & I2 & I3 & I4).
      split; [exact I1|]. split; [intros g; rewrite I2, M; pose proof (G g); destruct (mem b' g); lia|]. split; [exact I3|]. intros g Hg. rewrite (I4 g Hg), M. pose proof (G g). destruct (mem b' g); lia. }
    destruct (Z.leb_spec stop bs).
    { injection E as <- <-. split; [cbn; lia|]. split; [intros g; rewrite mem_single, M; pose proof (G g); destruct (mem b' g); lia|]. split; [exists lob; exact Hb|reflexivity]. }
    (* b's first interval takes a bite, leaving at most [cur,bs) before it and going on from be after it *)
    destruct (Z.ltb_spec be stop).
    + destruct (minus_iv be stop b') as [r rem'] eqn:Er. injection E as <- <-.
      destruct (IH be stop be B3 ltac:(assumption) r rem' Er) as (I1 & I2 & I3 & I4). split; [|split; [|split; [exact I3|]]].
      * intros lo Hlo. destruct (Z.ltb_spec cur bs); cbn; [split; [lia|split; [lia|split; [lia|]]]|]; apply I1; lia.
      * intros g. rewrite mem_app, orb_true_iff, mem_piece, I2, M. pose proof (G g). destruct (mem b' g); lia.
      * intros g Hg. rewrite (I4 g Hg), M. pose proof (G g). destruct (mem b' g); lia.
    + injection E as <- <-. split; [|split; [|split; [exists lob; exact Hb|reflexivity]]].
      * intros lo Hlo. destruct (Z.ltb_spec cur bs); cbn; lia.
      * intros g. rewrite mem_piece, M. pose proof (G g). destruct (mem b' g); lia.
Qed.

Theorem slice_minus_spec a : forall b lo, sep lo a -> normalized b ->
  sep lo (slice_minus a b) /\ forall g, mem (slice_minus a b) g = mem a g && negb (mem b g).
Proof.
  induction a as [|[s e] a' IH]; intros b lo Ha Hb; cbn [slice_minus].
  - split; [exact I|reflexivity].
  - destruct Ha as (A1 & A2 & A3). rewrite (proj2 (Z.ltb_lt s e) A2).
    destruct (minus_iv s e b) as [p rem] eqn:E. destruct Hb as [lob Hb].
    destruct (minus_iv_spec b s e lob Hb A2 p rem E) as (I1 & I2 & I3 & I4). destruct (IH rem e A3 I3) as [J1 J2]. split.
    + apply (within_app lo e); [lia|apply I1; exact A1|exact J1].
    + intros g. rewrite mem_app, J2, mem_cons.
      assert (Ep : mem p g = mem_iv g (s, e) && negb (mem b g)).
      { apply eq_true_iff_eq. rewrite I2, andb_true_iff, negb_true_iff, mem_iv_true, not_true_iff_false. reflexivity. }
      rewrite Ep. destruct (mem a' g) eqn:Ea; [|cbn [andb]; rewrite !orb_false_r; reflexivity].
      (* members of a' lie beyond e, where rem agrees with b *)
      apply (sep_mem_gt e a' g A3) in Ea. rewrite (eq_true_iff_eq _ _ (I4 g ltac:(lia))).
      destruct (mem_iv g (s, e)), (mem b g); reflexivity.
Qed.

Corollary slice_minus_normalized a b : normalized a -> normalized b -> normalized (slice_minus a b).
Proof. intros [lo Ha] Hb. exists lo. apply slice_minus_spec; auto. Qed.

Corollary slice_minus_mem a b g : normalized a -> normalized b ->
  mem (slice_minus a b) g = mem a g && negb (mem b g).
Proof. intros [lo Ha] Hb. apply (slice_minus_spec a b lo); auto. Qed.

Lemma normalized_mem_witness s : normalized s -> s <> [] -> exists g, mem s g = true.
Proof.
  intros [lo H] Hne. destruct s as [|[a b] r]; [congruence|]. exists a. apply (sep_mem_cons lo a b r H). destruct H. lia.
Qed.

Lemma insert_iv_spec s : forall x y lo, sep lo s -> x < y -> lo < x ->
  sep lo (insert_iv (x, y) s) /\ forall g, mem (insert_iv (x, y) s) g = mem_iv g (x, y) || mem s g.
Proof.
  induction s as [|[a b] r IH]; intros x y lo Hs Hxy Hlo; cbn [insert_iv].
  - split; [cbn; auto|reflexivity].
  - cbn in Hs. destruct Hs as (S1 & S2 & S3).
    destruct (Z.ltb_spec y a) as [Hya|Hya]; [split; [cbn; repeat split; assumption|reflexivity]|].
    destruct (Z.ltb_spec b x) as [Hbx|Hbx].
    + destruct (IH x y b S3 Hxy Hbx) as [I1 I2]. split; [cbn; auto|].
      intros g. rewrite !mem_cons, I2. destruct (mem_iv g (a, b)), (mem_iv g (x, y)); reflexivity.
    + (* the two intervals overlap or touch: their union is the interval from the least start to the greatest stop *)
      destruct (IH (Z.min x a) (Z.max y b) lo) as [I1 I2]; [eapply sep_weaken; [|exact S3]; lia|lia|lia|].
      split; [exact I1|]. intros g. rewrite I2, mem_cons, orb_assoc. f_equal.
      apply eq_true_iff_eq. rewrite orb_true_iff, !mem_iv_true. lia.
Qed.

Theorem normalize_spec s : forall lo, (forall i, In i s -> lo < fst i < snd i) ->
  sep lo (normalize s) /\ forall g, mem (normalize s) g = mem s g.
Proof.
  induction s as [|[x y] r IH]; intros lo H; cbn [normalize fold_right].
  - split; [exact I|reflexivity].
  - destruct (IH lo) as [I1 I2]; [intros i Hi; apply H; right; exact Hi|].
    pose proof (H (x, y) (or_introl eq_refl)) as Hxy. cbn in Hxy.
    destruct (insert_iv_spec (normalize r) x y lo I1) as [J1 J2]; [lia|lia|].
    split; [exact J1|]. intros g. fold (normalize r). rewrite J2, I2. reflexivity.
Qed.
