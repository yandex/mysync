(* After a refused lock re-check the iteration issues nothing further: performSwitchover returns
   ErrManagerLockLost at once and (after the repair 6ae7e63) the request handling of the iteration
   ends there, leaving the request to the new manager. *)
From Coq Require Import ZArith NArith Bool List Lia.
From Mysync Require Import Base.Prog Base.ProgFacts Base.Hoare Procs.Switchover Procs.Manager Proofs.ActiveNodesProofs Proofs.SwitchoverProofs Proofs.OutcomeProofs.
Import ListNotations.
Open Scope Z_scope.

Local Notation WP := (wp bool ll_step ll_ok).

Theorem switchover_lock_lost_wp cfg env sw mem : WP false (perform_switchover cfg env sw mem) ll_post.
Proof.
  apply (wp_map _ _ sp_step (sp_ok (fun _ => True)) _ _ sp_ll (fun b => (0, ml_init, b)) (fun _ => eq_refl)
           (fun s c H => proj1 (proj2 (proj2 H))) (fun s c r => eq_refl) _ sp_init).
  eapply wp_conseq; [|apply switchover_spine]. intros st a H. exact (proj2 H).
Qed.

Definition not_lock (c : call) : bool := match c with LockAcquire => false | _ => true end.
Lemma ll_of_nl {A} (p : prog A) : allcalls (fun _ c => not_lock c = true) p -> allcalls (fun _ c => ll_ok false c /\ neutral bool ll_step c) p.
Proof. apply allcalls_impl. intros _ c H. split; [reflexivity|]. intros st r. destruct c; try reflexivity. discriminate H. Qed.
Lemma calm_nl {A} (p : prog A) : allcalls (fun _ c => calmb c = true) p -> allcalls (fun _ c => not_lock c = true) p.
Proof. apply allcalls_impl. intros _ c H. destruct c; try reflexivity. discriminate H. Qed.

(* a bind whose first part issues no lock request: the monitor stays where it is *)
Local Ltac nl := apply wp_bind_neutral; [apply ll_of_nl | ].

Theorem handle_switchover_lock_lost cfg env m cs active master sw :
  safe bool ll_step ll_ok false (handle_switchover cfg env m cs active master sw).
Proof.
  eapply (wp_safe bool ll_step ll_ok _ _ (fun _ _ => True)).
  unfold handle_switchover.
  nl; [walk ltac:(first [exact I | reflexivity])|]. intros t.
  ifc; [nl; [apply calm_nl, d_finish|intros; exact I]|].
  case (approve_switchover cfg sw active cs); [intros _; nl; [apply calm_nl, d_finish|intros; exact I]|].
  nl; [apply calm_nl, start_calm|]. intros [sw1 [e|]]; [exact I|].
  apply wp_bind. eapply wp_conseq; [|apply switchover_lock_lost_wp].
  intros [|] r Hpost.
  - (* a re-check was refused: the result is one of the lock-lost exits, the iteration returns *)
    assert (L : lock_lost (fst r) = true) by (destruct (Hpost eq_refl) as [E|E]; rewrite E; reflexivity).
    revert L. case (lock_lost (fst r)); [intros _; exact I|discriminate].
  - case (lock_lost (fst r)); [exact I|]. split; [reflexivity|]. intros g.
    apply (unless_not_found g _ _ (fun p => WP false p (fun _ _ => True))); [exact I|].
    case (fst r); intros; (nl; [|intros; exact I]).
    + unfold finish_switchover. cbn [negb].
      walk ltac:(first [reflexivity | match goal with |- allcalls _ (stop_timing _) => apply calm_nl, d_stop_timing end]).
    + apply calm_nl, fail_calm.
Qed.

(* on traces: nothing follows a lock request that was not answered "held" *)
Definition refused (e : event) : Prop := ev_call e = LockAcquire /\ ev_resp e <> RBool true.
Lemma ll_trace_shape tr : trace_ok bool ll_step ll_ok false tr ->
  forall t1 e t2, tr = t1 ++ e :: t2 -> refused e -> t2 = [].
Proof.
  intros T t1 e t2 -> [Hc Hr]. apply (trace_ok_last _ _ _ _ _ _ _ T). intros st' E c K. unfold ll_ok in E, K. rewrite E, Hc in K.
  destruct (ev_resp e) as [| |[|]| | | | | | | | | | | |]; try discriminate K. apply Hr. reflexivity.
Qed.

Theorem nothing_after_a_refused_lock cfg env m cs active master sw tr o :
  runs (handle_switchover cfg env m cs active master sw) tr o ->
  forall t1 e t2, tr = t1 ++ e :: t2 -> refused e -> t2 = [].
Proof.
  intros R. apply ll_trace_shape.
  exact (safe_sound bool ll_step ll_ok _ _ (handle_switchover_lock_lost cfg env m cs active master sw) tr o R).
Qed.
