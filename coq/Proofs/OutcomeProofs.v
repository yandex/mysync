(* The success record of a switch request (last_switch) is written only by an iteration whose
   performSwitchover made the promoted host writable and recorded it as master, both answered OK. *)
From Coq Require Import ZArith NArith Bool List Lia.
From Mysync Require Import Proofs.ActiveNodesProofs.
From Mysync Require Import Gtid.Interval Gtid.GtidSet Pure.Quorum Base.Prog Base.ProgFacts Base.Hoare Base.Config
  Procs.NodeOps Procs.ActiveNodes Procs.Switchover Procs.Manager Proofs.NodeOpsProofs Proofs.SwitchoverProofs Proofs.MasterLast Proofs.ManagerProofs.
Import ListNotations.
Open Scope Z_scope.

Definition no_success_record (tr : trace) : Prop := Forall (fun e => forall v, ev_call e <> DcsSet PLastSwitch v) tr.

Lemma nsr_of_calm {A} (p : prog A) tr o : allcalls (fun _ c => calmb c = true) p -> runs p tr o -> no_success_record tr.
Proof.
  intros H R. pose proof (allcalls_sound _ p H tr o R) as F. eapply Forall_impl; [|exact F].
  intros e K v E. unfold ev_ok in K. rewrite E in K. discriminate K.
Qed.

Lemma fail_calm sw : allcalls (fun _ c => calmb c = true) (fail_switchover sw).
Proof. unfold fail_switchover. walk ltac:(reflexivity). Qed.
Lemma start_calm sw : allcalls (fun _ c => calmb c = true) (start_switchover sw).
Proof. unfold start_switchover, start_timing_at. walk ltac:(first [exact I|reflexivity|apply d_timing_now]). Qed.

Definition promoted_and_recorded (tr : trace) : Prop :=
  exists h w x, In w tr /\ ev_call w = Sql h SSetWritable /\ ev_resp w = ROk /\
                In x tr /\ ev_call x = DcsSet PMaster (VHost h) /\ ev_resp x = ROk.

Lemma promoted_and_recorded_incl t t' : incl t t' -> promoted_and_recorded t -> promoted_and_recorded t'.
Proof. intros I (h & w & x & H1 & H2 & H3 & H4 & H5). exists h, w, x. split; [exact (I w H1)|]. split; [exact H2|]. split; [exact H3|]. split; [exact (I x H4)|exact H5]. Qed.

Theorem success_record_means_promoted cfg env m cs active master sw tr o :
  runs (handle_switchover cfg env m cs active master sw) tr o ->
  no_success_record tr \/ promoted_and_recorded tr.
Proof.
  revert tr o. unfold handle_switchover. refine (holds_now _ _ _ _). intros e0 Ec0.
  apply (holds_conseq _ (fun t _ => no_success_record t \/ promoted_and_recorded t)).
  { intros t o [K|K]; [left; constructor; [intros v E; rewrite Ec0 in E; discriminate E|exact K]|right; exact (promoted_and_recorded_incl _ _ (incl_tl _ (incl_refl _)) K)]. }
  (* every part but the one that finishes a successful attempt leaves the record alone *)
  assert (CALM : forall A (p : prog A) pre, no_success_record pre -> allcalls (fun _ c => calmb c = true) p ->
            holds p (fun t _ => no_success_record (pre ++ t) \/ promoted_and_recorded (pre ++ t))).
  { intros A p pre N H t o R. left. apply Forall_app. split; [exact N|exact (nsr_of_calm _ _ _ H R)]. }
  assert (REJ : holds (finish_switchover sw false ;;; Ret m) (fun t _ => no_success_record t \/ promoted_and_recorded t)).
  { apply (CALM _ _ [] (Forall_nil _)). apply allcalls_bind; [apply d_finish|intros; exact I]. }
  match goal with |- holds (if ?c then _ else _) _ => case c end; [exact REJ|].
  case (approve_switchover cfg sw active cs); [intros _; exact REJ|]. clear REJ.
  apply holds_bind; [intros t s R; left; exact (nsr_of_calm _ _ _ (start_calm sw) R)|].
  intros [sw1 e] t1 R1. pose proof (nsr_of_calm _ _ _ (start_calm sw) R1) as N1.
  destruct e; [apply holds_ret; left; rewrite app_nil_r; exact N1|].
  apply holds_bind; [intros t s P1; left; apply Forall_app; split; [exact N1|exact (switchover_never_records_success _ _ _ _ _ _ P1)]|].
  intros r p1 P1.
  assert (N2 : no_success_record (t1 ++ p1)) by (apply Forall_app; split; [exact N1|exact (switchover_never_records_success _ _ _ _ _ _ P1)]).
  apply (holds_conseq _ (fun t _ => no_success_record ((t1 ++ p1) ++ t) \/ promoted_and_recorded ((t1 ++ p1) ++ t))).
  { intros t o K. rewrite <- app_assoc in K. exact K. }
  case (lock_lost (fst r)); [apply (CALM _ _ _ N2); exact I|].
  destruct (fst r) as [|c] eqn:Efr.
  - intros t o _. right. destruct r as [re mem']. cbn [fst] in Efr. subst re.
    destruct (success_means_master_recorded _ _ _ _ _ _ P1) as (q1 & x & h & w & -> & Hx & Hxr & Hw & Hwc & Hwr).
    apply (promoted_and_recorded_incl (q1 ++ [x])); [apply incl_appl, incl_appr, incl_refl|].
    exists h, w, x. split; [apply in_or_app; left; exact Hw|]. split; [exact Hwc|]. split; [exact Hwr|].
    split; [apply in_elt|]. split; [exact Hx|exact Hxr].
  - apply (CALM _ _ _ N2). split; [reflexivity|]. intros g. apply (unless_not_found g _ _ (allcalls _)); [exact I|].
    apply allcalls_bind; [apply fail_calm|intros; exact I].
Qed.
