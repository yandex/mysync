From Coq Require Import ZArith NArith Bool List Lia Permutation.
From Mysync Require Import Gtid.Interval Gtid.GtidSet Proofs.IntervalProofs.
Import ListNotations.
Open Scope Z_scope.

Definition subset (a b : gtidset) : Prop := forall u t g, gmem a u t g = true -> gmem b u t g = true.
Definition same (a b : gtidset) : Prop := forall u t g, gmem a u t g = gmem b u t g.

Section Lookup.
Context {V : Type}.
Lemma lookup_In_some k (v : V) m : lookup k m = Some v -> In (k, v) m.
Proof.
  induction m as [|[k' v'] r IH]; cbn; [discriminate|].
  destruct (N.eqb_spec k k'); [intros E; inversion E; subst; left; reflexivity|auto].
Qed.
Lemma lookup_head k (v : V) r : lookup k ((k, v) :: r) = Some v.
Proof. cbn. rewrite N.eqb_refl. reflexivity. Qed.
Lemma In_lookup k (v : V) m : NoDup (map fst m) -> In (k, v) m -> lookup k m = Some v.
Proof.
  induction m as [|[k' v'] r IH]; cbn; intros Hnd Hi; [destruct Hi|].
  inversion Hnd as [|? ? Hn Hnd']; subst.
  destruct Hi as [E|Hi].
  - inversion E; subst. rewrite N.eqb_refl. reflexivity.
  - destruct (N.eqb_spec k k'); [subst; exfalso; apply Hn; apply (in_map fst) in Hi; exact Hi|auto].
Qed.
Lemma lookup_some_key k (v : V) m : lookup k m = Some v -> In k (map fst m).
Proof. intros H. apply lookup_In_some in H. apply (in_map fst) in H. exact H. Qed.
Lemma key_lookup k (m : list (N * V)) : In k (map fst m) -> exists v, lookup k m = Some v.
Proof.
  induction m as [|[k' v'] r IH]; cbn; [intros []|]. destruct (N.eqb_spec k k'); [eauto|]. intros [E|H]; [congruence|auto].
Qed.
End Lookup.

Section Keys.
Context {V W : Type} (m : list (N * V)) (m' : list (N * W)).
Hypothesis Hm : NoDup (map fst m).
Hypothesis Hi : forall k v, lookup k m = Some v -> exists w, lookup k m' = Some w.
Lemma keys_incl : incl (map fst m) (map fst m').
Proof. intros k Hk. apply key_lookup in Hk. destruct Hk as [v Hv]. destruct (Hi k v Hv) as [w Hw]. eapply lookup_some_key, Hw. Qed.
Lemma keys_agree : length m = length m' -> forall k, lookup k m = None -> lookup k m' = None.
Proof.
  intros Hl k L. destruct (lookup k m') as [w|] eqn:L'; [|reflexivity]. destruct (key_lookup k m) as [v Lv]; [|congruence].
  apply (NoDup_length_incl (l' := map fst m') Hm); [rewrite !map_length; lia|exact keys_incl|eapply lookup_some_key, L'].
Qed.
End Keys.
Lemma same_length {V W} (m : list (N * V)) (m' : list (N * W)) : NoDup (map fst m) -> NoDup (map fst m') ->
  (forall k v, lookup k m = Some v -> exists w, lookup k m' = Some w) ->
  (forall k w, lookup k m' = Some w -> exists v, lookup k m = Some v) -> length m = length m'.
Proof.
  intros N1 N2 H1 H2. rewrite <- (map_length fst m), <- (map_length fst m'). apply Nat.le_antisymm; apply NoDup_incl_length; auto using keys_incl.
Qed.

Lemma filter_map_cons {V W} (f : N -> V -> option W) k v r :
  filter_map_vals f ((k, v) :: r) = match f k v with None => filter_map_vals f r | Some w => (k, w) :: filter_map_vals f r end.
Proof. unfold filter_map_vals. cbn. destruct (f k v); reflexivity. Qed.

Lemma lookup_filter_map {V W} (f : N -> V -> option W) m k : NoDup (map fst m) ->
  lookup k (filter_map_vals f m) = match lookup k m with None => None | Some v => f k v end.
Proof.
  induction m as [|[k' v'] r IH]; intros Hnd; [reflexivity|].
  cbn [map fst] in Hnd. inversion Hnd as [|? ? Hn Hnd']; subst.
  rewrite filter_map_cons. cbn [lookup].
  destruct (N.eqb_spec k k') as [->|Hne].
  - destruct (f k' v') as [w|] eqn:E; [apply lookup_head|].
    rewrite IH by assumption. destruct (lookup k' r) eqn:El; [|reflexivity].
    exfalso. apply Hn. eapply lookup_some_key; eauto.
  - destruct (f k' v') as [w|] eqn:E; [cbn [lookup]; destruct (N.eqb_spec k k'); [congruence|]|]; auto.
Qed.

Lemma filter_map_In {V W} (f : N -> V -> option W) m k w :
  In (k, w) (filter_map_vals f m) -> exists v, In (k, v) m /\ f k v = Some w.
Proof.
  unfold filter_map_vals. rewrite in_flat_map. intros ([k' v] & Hi & H).
  destruct (f k' v) eqn:E; [destruct H as [[= <- <-]|[]]|destruct H]. eauto.
Qed.
Lemma filter_map_keys_incl {V W} (f : N -> V -> option W) m : incl (map fst (filter_map_vals f m)) (map fst m).
Proof.
  intros x Hx. apply in_map_iff in Hx. destruct Hx as ([k w] & <- & Hi). apply filter_map_In in Hi.
  destruct Hi as (v & Hi & _). apply (in_map fst) in Hi. exact Hi.
Qed.
Lemma filter_map_nodup {V W} (f : N -> V -> option W) m : NoDup (map fst m) -> NoDup (map fst (filter_map_vals f m)).
Proof.
  induction m as [|[k v] r IH]; intros Hnd; [constructor|].
  cbn [map fst] in Hnd. inversion Hnd as [|? ? Hn Hnd']; subst.
  rewrite filter_map_cons. destruct (f k v); cbn [map fst]; [constructor; [intros Hi; apply Hn; eapply filter_map_keys_incl; eauto|auto]|auto].
Qed.

Lemma wf_entry s u tm : wf s -> lookup u s = Some tm -> wf_tagmap tm.
Proof. intros [_ H] Hl. eapply H. eapply lookup_In_some; eauto. Qed.
Lemma wf_slice tm t sl : wf_tagmap tm -> lookup t tm = Some sl -> sl <> [] /\ normalized sl.
Proof. intros (_ & _ & H) Hl. eapply H. eapply lookup_In_some; eauto. Qed.

(* A well-formed set is a function from (uuid, tag) to normalized slices, [] where the entry is missing; the
   operations of the library work slice by slice. *)
Definition gslice (s : gtidset) (u t : N) : islice :=
  match lookup u s with Some tm => lookup_or_nil t tm | None => [] end.
Lemma gmem_gslice s u t g : gmem s u t g = mem (gslice s u t) g.
Proof. unfold gmem, gslice, lookup_or_nil. destruct (lookup u s) as [tm|]; [|reflexivity]. destruct (lookup t tm); reflexivity. Qed.
Lemma gslice_entry s u tm t sl : wf s -> lookup u s = Some tm -> lookup t tm = Some sl -> gslice s u t = sl /\ sl <> [].
Proof.
  intros Hw L1 L2. unfold gslice, lookup_or_nil. rewrite L1, L2. split; [reflexivity|]. apply (wf_slice tm t sl (wf_entry s u tm Hw L1) L2).
Qed.
Lemma gslice_In s u tm t sl : wf s -> In (u, tm) s -> In (t, sl) tm -> gslice s u t = sl /\ sl <> [].
Proof.
  intros Hw H1 H2. assert (L1 : lookup u s = Some tm) by (apply In_lookup; [apply Hw|exact H1]).
  apply (gslice_entry s u tm t sl Hw L1). apply In_lookup; [apply (wf_entry s u tm Hw L1)|exact H2].
Qed.
Lemma gslice_nonnil s u t : gslice s u t <> [] -> exists tm, lookup u s = Some tm /\ lookup t tm = Some (gslice s u t).
Proof.
  unfold gslice, lookup_or_nil. destruct (lookup u s) as [tm|]; [|congruence]. destruct (lookup t tm) eqn:E; [eauto|congruence].
Qed.
Lemma gslice_normalized s u t : wf s -> normalized (gslice s u t).
Proof.
  intros Hw. destruct (gslice s u t) eqn:E; [exists 0; exact I|]. rewrite <- E. destruct (gslice_nonnil s u t) as (tm & L1 & L2); [congruence|].
  apply (wf_slice tm t _ (wf_entry s u tm Hw L1) L2).
Qed.
Lemma wf_tag s u tm : wf s -> lookup u s = Some tm -> exists t sl, lookup t tm = Some sl.
Proof. intros Hw L. destruct (wf_entry s u tm Hw L) as [Hne _]. destruct tm as [|[t sl] r]; [congruence|]. exists t, sl. apply lookup_head. Qed.

Lemma same_gslice a b : wf a -> wf b -> (same a b <-> forall u t, gslice a u t = gslice b u t).
Proof.
  intros Wa Wb. split.
  - intros H u t. apply normalized_ext; try apply gslice_normalized; auto. intros g. rewrite <- !gmem_gslice. apply H.
  - intros H u t g. rewrite !gmem_gslice, H. reflexivity.
Qed.
Lemma subset_gslice a b : wf a -> wf b -> (subset a b <-> forall u t, slice_contain (gslice b u t) (gslice a u t) = true).
Proof.
  intros Wa Wb. unfold subset. setoid_rewrite gmem_gslice.
  split; intros H u t; (apply slice_contain_spec; [apply gslice_normalized, Wb|apply normalized_nonempty, gslice_normalized, Wa|apply H]).
Qed.

Lemma contain_nil sub : slice_contain [] sub = true -> sub = [].
Proof. destruct sub; [reflexivity|discriminate]. Qed.

Lemma set_contain_gslice s o : wf o -> (set_contain s o = true <-> forall u t, slice_contain (gslice s u t) (gslice o u t) = true).
Proof.
  intros Ho. unfold set_contain. rewrite forallb_forall. split.
  - intros H u t. unfold gslice at 2. destruct (lookup u o) as [otm|] eqn:Lo; [|reflexivity].
    unfold lookup_or_nil. destruct (lookup t otm) as [osl|] eqn:Lt; [|reflexivity].
    specialize (H (u, otm) (lookup_In_some _ _ _ Lo)). cbn in H. unfold gslice. destruct (lookup u s) as [stm|]; [|discriminate].
    unfold tagmap_contain in H. rewrite forallb_forall in H. specialize (H (t, osl) (lookup_In_some _ _ _ Lt)). cbn in H.
    unfold lookup_or_nil. destruct (lookup t stm); [exact H|discriminate].
  - (* a slice of o is not empty, so the slice of s that contains it is there *)
    intros H [u otm] Hi.
    assert (K : forall t osl, In (t, osl) otm -> exists stm ssl, lookup u s = Some stm /\ lookup t stm = Some ssl /\ slice_contain ssl osl = true).
    { intros t osl Hit. destruct (gslice_In o u otm t osl Ho Hi Hit) as [E Hne]. specialize (H u t). rewrite E in H.
      destruct (gslice_nonnil s u t) as (stm & L1 & L2); [intros E0; rewrite E0 in H; apply contain_nil in H; contradiction|]. eauto. }
    destruct (wf_tag o u otm Ho (In_lookup _ _ _ (proj1 Ho) Hi)) as (t0 & sl0 & L0).
    destruct (K t0 sl0 (lookup_In_some _ _ _ L0)) as (stm & _ & Ls & _). rewrite Ls. apply forallb_forall. intros [t osl] Hit.
    destruct (K t osl Hit) as (stm' & ssl & Ls' & Lt & Hc). rewrite Ls in Ls'. injection Ls' as <-. rewrite Lt. exact Hc.
Qed.

Theorem set_contain_spec s o : wf s -> wf o -> (set_contain s o = true <-> subset o s).
Proof. intros Hs Ho. rewrite (set_contain_gslice s o Ho). symmetry. apply subset_gslice; assumption. Qed.

Theorem set_equal_sound s o : wf s -> set_equal s o = true -> same s o.
Proof.
  intros Hs H. unfold set_equal in H. apply andb_true_iff in H. destruct H as [Hlen H].
  apply Nat.eqb_eq in Hlen. rewrite forallb_forall in H.
  (* entry-wise: every (u, sm) of s has a twin in o with the same slices *)
  assert (Hfwd : forall u sm, lookup u s = Some sm -> exists om, lookup u o = Some om /\ length sm = length om /\
                   forall t i, lookup t sm = Some i -> lookup t om = Some i).
  { intros u sm Ls. specialize (H (u, sm) (lookup_In_some _ _ _ Ls)). cbn in H.
    destruct (lookup u o) as [om|] eqn:Lo; [|discriminate]. exists om. split; [reflexivity|].
    apply andb_true_iff in H. destruct H as [Hl2 H]. apply Nat.eqb_eq in Hl2. split; [exact Hl2|].
    rewrite forallb_forall in H. intros t i Lt. specialize (H (t, i) (lookup_In_some _ _ _ Lt)). cbn in H.
    apply slice_equal_eq in H. unfold lookup_or_nil in H.
    destruct (wf_slice _ _ _ (wf_entry _ _ _ Hs Ls) Lt) as [Hne _].
    destruct (lookup t om); congruence. }
  (* and, the lengths being equal, o has no further uuid and the twin no further tag *)
  intros u t g. unfold gmem. destruct (lookup u s) as [sm|] eqn:Ls.
  - destruct (Hfwd _ _ Ls) as (om & Lo & Hl2 & Hsl). rewrite Lo.
    destruct (lookup t sm) as [i|] eqn:Lt; [rewrite (Hsl _ _ Lt); reflexivity|].
    destruct (wf_entry _ _ _ Hs Ls) as (_ & Nd1 & _). rewrite (keys_agree sm om Nd1 (fun t i L => ex_intro _ i (Hsl t i L)) Hl2 t Lt). reflexivity.
  - rewrite (keys_agree s o (proj1 Hs)) with (k := u); [reflexivity| |exact Hlen|exact Ls].
    intros k v Lk. destruct (Hfwd k v Lk) as (w & Lw & _). eauto.
Qed.

Theorem behind_or_equal_spec slave master : wf slave -> wf master ->
  (behind_or_equal slave master = true <-> subset slave master).
Proof.
  intros Hs Hm. unfold behind_or_equal. rewrite orb_true_iff. split.
  - intros [H|H]; [apply set_contain_spec in H; auto|].
    apply set_equal_sound in H; auto. intros u t g Hg. rewrite H. exact Hg.
  - intros H. left. apply set_contain_spec; auto.
Qed.

Theorem slave_ahead_spec slave master : wf slave -> wf master ->
  (slave_ahead slave master = true <-> ~ subset slave master).
Proof.
  intros Hs Hm. unfold slave_ahead. rewrite negb_true_iff, <- not_true_iff_false, behind_or_equal_spec; tauto.
Qed.

Lemma nonnil_some {A} (l l' : list A) : nonnil l = Some l' -> l' = l /\ l <> [].
Proof. destruct l; cbn; [discriminate|]. intros E; inversion E. split; [reflexivity|discriminate]. Qed.

Lemma tag_diff_spec btm t asl g : normalized asl -> (forall bm, btm = Some bm -> wf_tagmap bm) ->
  normalized (tag_diff btm t asl) /\
  mem (tag_diff btm t asl) g = mem asl g && negb (match btm with None => false | Some bm => match lookup t bm with None => false | Some bsl => mem bsl g end end).
Proof.
  intros Ha Hb. unfold tag_diff. destruct btm as [bm|]; [|split; [exact Ha|rewrite andb_true_r; reflexivity]].
  destruct (lookup t bm) as [bsl|] eqn:L; [|split; [exact Ha|rewrite andb_true_r; reflexivity]].
  destruct (wf_slice _ _ _ (Hb bm eq_refl) L) as [_ Hn].
  split; [apply slice_minus_normalized; auto|apply slice_minus_mem; auto].
Qed.

Lemma nonnil_elim {A B} (l : list A) (f : list A -> B) : match nonnil l with Some d => f d | None => f [] end = f l.
Proof. destruct l; reflexivity. Qed.
Lemma gslice_minus a b u t : wf a ->
  gslice (set_minus a b) u t = match lookup u a with Some atm => match lookup t atm with Some asl => tag_diff (lookup u b) t asl | None => [] end | None => [] end.
Proof.
  intros Ha. unfold gslice, set_minus. rewrite lookup_filter_map by apply Ha. destruct (lookup u a) as [atm|] eqn:La; [|reflexivity].
  rewrite (nonnil_elim _ (lookup_or_nil t)). unfold lookup_or_nil, tagmap_minus. rewrite lookup_filter_map by apply (wf_entry a u atm Ha La).
  destruct (lookup t atm) as [asl|]; [|reflexivity]. apply (nonnil_elim _ (fun l => l)).
Qed.

Theorem set_minus_spec a b : wf a -> wf b ->
  wf (set_minus a b) /\ forall u t g, gmem (set_minus a b) u t g = gmem a u t g && negb (gmem b u t g).
Proof.
  intros Ha Hb. split.
  - split; [apply filter_map_nodup; apply Ha|].
    intros u d Hi. apply filter_map_In in Hi. destruct Hi as (atm & Hia & Hf).
    apply nonnil_some in Hf. destruct Hf as [-> Hne].
    destruct Ha as [Nda Hwa]. pose proof (Hwa _ _ Hia) as (_ & Ndt & Hsl).
    split; [exact Hne|]. split; [apply filter_map_nodup; exact Ndt|].
    intros t sl Hit. apply filter_map_In in Hit. destruct Hit as (asl & Hit & Hf).
    apply nonnil_some in Hf. destruct Hf as [-> Hne2]. split; [exact Hne2|].
    destruct (Hsl _ _ Hit) as [_ Hn].
    apply (tag_diff_spec (lookup u b) t asl 0 Hn). intros bm Lb. eapply wf_entry; eauto.
  - intros u t g. rewrite gmem_gslice, gslice_minus by exact Ha. unfold gmem at 1.
    destruct (lookup u a) as [atm|] eqn:La; [|reflexivity]. destruct (lookup t atm) as [asl|] eqn:Lt; [|reflexivity].
    apply tag_diff_spec; [apply (wf_slice atm t asl (wf_entry a u atm Ha La) Lt)|intros bm Lb; apply (wf_entry b u bm Hb Lb)].
Qed.

Lemma wf_empty_iff s : wf s -> (is_empty s = true <-> forall u t g, gmem s u t g = false).
Proof.
  intros Hw. destruct s as [|[u tm] r]; cbn [is_empty]; split; try reflexivity; try discriminate.
  intros H. exfalso. destruct (wf_tag _ u tm Hw (lookup_head u tm r)) as (t & sl & Lt).
  destruct (gslice_entry _ u tm t sl Hw (lookup_head u tm r) Lt) as [E Hne]. rewrite <- E in Hne.
  destruct (normalized_mem_witness _ (gslice_normalized _ u t Hw) Hne) as [g Hg]. rewrite <- gmem_gslice, H in Hg. discriminate.
Qed.

Lemma minus_empty a b : wf a -> wf b -> reflect (subset a b) (is_empty (set_minus a b)).
Proof.
  intros Ha Hb. destruct (set_minus_spec a b Ha Hb) as [Hw Hm]. apply iff_reflect. rewrite (wf_empty_iff _ Hw). split.
  - intros H u t g. rewrite Hm. destruct (gmem a u t g) eqn:E; [|reflexivity]. rewrite (H _ _ _ E). reflexivity.
  - intros H u t g Hg. specialize (H u t g). rewrite Hm, Hg in H. apply negb_false_iff in H. exact H.
Qed.

(* GTIDDiff: the two reported sets are exactly the two differences and the
   message kind is determined by which of them is empty *)
Theorem gtid_diff_spec replica source : wf replica -> wf source ->
  let '(k, ds, dr) := gtid_diff replica source in
  (forall u t g, gmem ds u t g = gmem source u t g && negb (gmem replica u t g)) /\
  (forall u t g, gmem dr u t g = gmem replica u t g && negb (gmem source u t g)) /\
  (k = DiffEqual <-> (subset source replica /\ subset replica source)) /\
  (k = DiffSourceAhead <-> (~ subset source replica /\ subset replica source)) /\
  (k = DiffReplicaAhead <-> (subset source replica /\ ~ subset replica source)) /\
  (k = DiffSplitBrain <-> (~ subset source replica /\ ~ subset replica source)).
Proof.
  intros Hr Hs. unfold gtid_diff. split; [apply set_minus_spec; assumption|]. split; [apply set_minus_spec; assumption|].
  destruct (minus_empty source replica Hs Hr), (minus_empty replica source Hr Hs);
    (split; [|split; [|split]]); (split; [intros H; try discriminate H; split; assumption|intros [? ?]; try reflexivity; contradiction]).
Qed.

(* some slice of the slave is missing on the master, or not contained in the master's and of a foreign uuid *)
Lemma split_brained_iff s m mu : wf s -> wf m -> (split_brained s m mu = true <->
  exists u t, gslice s u t <> [] /\ (gslice m u t = [] \/ (slice_contain (gslice m u t) (gslice s u t) = false /\ u <> mu))).
Proof.
  intros Hs Hm. unfold split_brained. rewrite existsb_exists. split.
  - intros ([u stm] & Hi & H). destruct (lookup u m) as [mtm|] eqn:Lm.
    + apply existsb_exists in H. destruct H as ([t ssl] & Hit & H). destruct (gslice_In s u stm t ssl Hs Hi Hit) as [E Hne].
      exists u, t. rewrite E. split; [exact Hne|]. unfold gslice, lookup_or_nil. rewrite Lm.
      destruct (lookup t mtm) as [msl|]; [right|left; reflexivity]. destruct (slice_contain msl ssl); [discriminate|].
      split; [reflexivity|]. apply N.eqb_neq, negb_true_iff, H.
    + destruct (wf_tag s u stm Hs (In_lookup _ _ _ (proj1 Hs) Hi)) as (t & ssl & Lt).
      destruct (gslice_In s u stm t ssl Hs Hi (lookup_In_some _ _ _ Lt)) as [E Hne].
      exists u, t. rewrite E. split; [exact Hne|]. left. unfold gslice. rewrite Lm. reflexivity.
  - intros (u & t & Hne & H). destruct (gslice_nonnil s u t Hne) as (stm & Ls & Lt).
    exists (u, stm). split; [apply lookup_In_some, Ls|]. destruct (lookup u m) as [mtm|] eqn:Lm; [|reflexivity].
    apply existsb_exists. exists (t, gslice s u t). split; [apply lookup_In_some, Lt|]. destruct (lookup t mtm) as [msl|] eqn:Lmt; [|reflexivity].
    destruct (gslice_entry m u mtm t msl Hm Lm Lmt) as [E Hnm]. rewrite E in H.
    destruct H as [H|[-> H]]; [contradiction|]. apply negb_true_iff, N.eqb_neq, H.
Qed.

Theorem split_brained_subset slave master mu : wf slave -> wf master ->
  subset slave master -> split_brained slave master mu = false.
Proof.
  intros Hs Hm Hsub. apply not_true_iff_false. intros H. apply split_brained_iff in H; auto. destruct H as (u & t & Hne & H).
  pose proof (proj1 (subset_gslice slave master Hs Hm) Hsub u t) as Hc. destruct H as [E|[E _]]; [|congruence].
  rewrite E in Hc. apply contain_nil in Hc. contradiction.
Qed.

Theorem split_brained_foreign slave master mu u t g : wf slave -> wf master ->
  gmem slave u t g = true -> gmem master u t g = false -> u <> mu ->
  split_brained slave master mu = true.
Proof.
  intros Hs Hm Hg Hng Hne. apply split_brained_iff; auto. rewrite gmem_gslice in Hg, Hng. exists u, t.
  split; [intros E; rewrite E in Hg; discriminate|]. right. split; [|exact Hne].
  apply not_true_iff_false. intros Hc.
  rewrite (proj1 (slice_contain_spec _ _ (gslice_normalized master u t Hm) (normalized_nonempty _ (gslice_normalized slave u t Hs))) Hc g Hg) in Hng.
  discriminate.
Qed.

Definition all_wf (ps : list position) : Prop := forall p, In p ps -> wf (p_set p).
Definition contains_all (ps : list position) (p : position) : Prop :=
  forall n, In n ps -> subset (p_set n) (p_set p).

Lemma subset_refl a : subset a a. Proof. intros u t g K; exact K. Qed.
Lemma subset_trans a b c : subset a b -> subset b c -> subset a c.
Proof. intros H1 H2 u t g K. apply H2, H1, K. Qed.
Lemma same_refl a : same a a. Proof. intros u t g; reflexivity. Qed.
Lemma same_sym a b : same a b -> same b a. Proof. intros H u t g; symmetry; apply H. Qed.
Lemma same_trans a b c : same a b -> same b c -> same a c.
Proof. intros H1 H2 u t g. rewrite H1. apply H2. Qed.
Lemma same_subset a b : same a b -> subset a b.
Proof. intros H u t g Hg. rewrite <- H. exact Hg. Qed.
Lemma subset_antisym a b : subset a b -> subset b a -> same a b.
Proof.
  intros H1 H2 u t g. destruct (gmem a u t g) eqn:E1, (gmem b u t g) eqn:E2; try reflexivity.
  - apply H1 in E1. congruence.
  - apply H2 in E2. congruence.
Qed.

(* A scan that keeps one of two candidates at every step: a relation R to a scanned element that every step
   establishes for the new element and preserves for the old ones holds at the end. *)
Section Scan.
Context {A : Type} (f : A -> A -> A) (Hpick : forall a b, f a b = a \/ f a b = b).
Lemma fold_left_pick l : forall a, In (fold_left f l a) (a :: l).
Proof.
  induction l as [|b l IH]; intros a; cbn [fold_left]; [left; reflexivity|].
  destruct (IH (f a b)) as [E|Hi]; [|right; right; exact Hi].
  rewrite <- E. destruct (Hpick a b) as [K|K]; rewrite K; [left|right; left]; reflexivity.
Qed.
Lemma fold_left_dominates (W : A -> Prop) (R : A -> A -> Prop) :
  (forall m q, W m -> W q -> R (f m q) q) ->
  (forall m q p, W m -> W q -> R m p -> R (f m q) p) ->
  forall l m, W m -> Forall W l -> forall p, R m p \/ In p l -> R (fold_left f l m) p.
Proof.
  intros Hnew Hmono. induction l as [|q l IH]; intros m Wm Wl p Hp; cbn [fold_left]; [destruct Hp as [H|[]]; exact H|].
  inversion Wl as [|? ? Wq Wl']; subst. apply IH; [destruct (Hpick m q) as [->| ->]; assumption|exact Wl'|].
  destruct Hp as [H|[<-|H]]; [left; apply Hmono; assumption|left; apply Hnew; assumption|right; exact H].
Qed.
End Scan.

Lemma recent_step_pick mx p : recent_step mx p = mx \/ recent_step mx p = p.
Proof.
  unfold recent_step. destruct (set_equal _ _); [destruct (_ <? _)|destruct (set_contain _ _)]; auto.
Qed.
Lemma fold_recent_in l : forall mx, In (fold_left recent_step l mx) (mx :: l).
Proof. apply (fold_left_pick recent_step recent_step_pick). Qed.

(* once a position that contains all the others has been scanned, the running choice contains it *)
Lemma fold_recent_top ps c l m : all_wf ps -> incl (m :: l) ps -> In c (m :: l) -> contains_all ps c ->
  subset (p_set c) (p_set (fold_left recent_step l m)).
Proof.
  intros Hwf Hl Hc.
  apply (fold_left_dominates recent_step recent_step_pick (fun x => In x ps) (fun m p => contains_all ps p -> subset (p_set p) (p_set m))).
  - intros mx q Wm Wq Cq. unfold recent_step. destruct (set_equal (p_set q) (p_set mx)) eqn:Eq.
    + apply set_equal_sound in Eq; auto. destruct (_ <? _); [apply subset_refl|apply same_subset, Eq].
    + rewrite (proj2 (set_contain_spec _ _ (Hwf q Wq) (Hwf mx Wm)) (Cq mx Wm)). apply subset_refl.
  - intros mx q p Wm Wq H Cp. specialize (H Cp). unfold recent_step. destruct (set_equal (p_set q) (p_set mx)) eqn:Eq.
    + apply set_equal_sound in Eq; auto. destruct (_ <? _); [|exact H]. eapply subset_trans; [exact H|apply same_subset, same_sym, Eq].
    + destruct (set_contain (p_set q) (p_set mx)) eqn:Ec; [|exact H]. apply set_contain_spec in Ec; auto. eapply subset_trans; eauto.
  - apply Hl. left. reflexivity.
  - apply Forall_forall. intros x Hx. apply Hl. right. exact Hx.
  - destruct Hc as [<-|Hc]; [left; intros _; apply subset_refl|right; exact Hc].
Qed.

Lemma detect_splitbrain_false ps sel : all_wf ps -> wf (p_set sel) -> (detect_splitbrain ps sel = false <-> contains_all ps sel).
Proof.
  intros Hwf Hw. unfold detect_splitbrain. rewrite <- not_true_iff_false, existsb_exists. split.
  - intros H n Hn. apply set_contain_spec; auto. destruct (set_contain (p_set sel) (p_set n)) eqn:E; [reflexivity|]. destruct H. exists n. rewrite E. auto.
  - intros H (n & Hn & E). apply negb_true_iff, not_true_iff_false in E. apply E. apply set_contain_spec; auto.
Qed.

Theorem most_recent_found ps h st : all_wf ps -> most_recent ps = RecentFound h st ->
  exists p, In p ps /\ p_host p = h /\ p_set p = st /\ contains_all ps p.
Proof.
  intros Hwf H. destruct ps as [|p0 r]; [discriminate|]. cbn [most_recent] in H.
  pose proof (fold_recent_in r p0) as Hin. destruct (detect_splitbrain _ _) eqn:D; [discriminate|]. injection H as <- <-.
  apply detect_splitbrain_false in D; eauto.
Qed.

Theorem most_recent_splitbrain_iff ps : all_wf ps -> ps <> [] ->
  (most_recent ps = RecentSplitBrain <-> ~ exists p, In p ps /\ contains_all ps p).
Proof.
  intros Hwf Hne. split.
  - intros H (c & Hc & Hall). destruct ps as [|p0 r]; [congruence|]. cbn [most_recent] in H.
    pose proof (fold_recent_in r p0) as Hin. destruct (detect_splitbrain _ _) eqn:D; [|discriminate].
    apply not_false_iff_true in D. apply D. apply detect_splitbrain_false; auto.
    intros n Hn. eapply subset_trans; [apply Hall, Hn|]. apply (fold_recent_top (p0 :: r)); auto using incl_refl.
  - intros Hno. destruct (most_recent ps) eqn:E; [reflexivity| |].
    + destruct Hno. destruct (most_recent_found ps h s Hwf E) as (p & H1 & _ & _ & H2). eauto.
    + destruct ps; [congruence|]. cbn [most_recent] in E. destruct (detect_splitbrain _ _); discriminate.
Qed.

Lemma nodupb_spec l : nodupb l = true -> NoDup l.
Proof.
  induction l as [|x r IH]; cbn; intros H; [constructor|].
  apply andb_true_iff in H. destruct H as [H1 H2]. constructor; [|auto].
  intros Hi. apply negb_true_iff in H1. apply not_true_iff_false in H1. apply H1.
  apply existsb_exists. exists x. split; [exact Hi|apply N.eqb_refl].
Qed.
Lemma wfb_sound s : wfb s = true -> wf s.
Proof.
  unfold wfb. intros H. apply andb_true_iff in H. destruct H as [H1 H2]. split; [apply nodupb_spec; exact H1|].
  rewrite forallb_forall in H2. intros u tm Hi. specialize (H2 _ Hi). cbn in H2.
  unfold wf_tagmapb in H2. apply andb_true_iff in H2. destruct H2 as [H2 H3]. apply andb_true_iff in H2. destruct H2 as [H2 H4].
  split; [destruct tm; [discriminate|discriminate]|]. split; [apply nodupb_spec; exact H4|].
  rewrite forallb_forall in H3. intros t sl Hit. specialize (H3 _ Hit). cbn in H3.
  apply andb_true_iff in H3. destruct H3 as [H5 H6]. split; [destruct sl; [discriminate|discriminate]|apply normalizedb_spec; exact H6].
Qed.

(* Completeness of MysqlGTIDSet.Equal on well-formed sets: sets with the same transactions are Equal
   (soundness is set_equal_sound above).  Needed for the "then with less lag" tie-break of C14. *)
Lemma same_key s o u sm : wf s -> wf o -> same s o -> lookup u s = Some sm -> exists om, lookup u o = Some om.
Proof.
  intros Hs Ho Hsame Ls. destruct (wf_tag s u sm Hs Ls) as (t & i & Lt). destruct (gslice_entry s u sm t i Hs Ls Lt) as [E Hne].
  rewrite (proj1 (same_gslice s o Hs Ho) Hsame) in E. destruct (gslice_nonnil o u t) as (om & Lo & _); [congruence|eauto].
Qed.

Lemma same_tag s o u sm om t i : wf s -> wf o -> same s o -> lookup u s = Some sm -> lookup u o = Some om ->
  lookup t sm = Some i -> lookup t om = Some i.
Proof.
  intros Hs Ho Hsame Ls Lo Lt. destruct (gslice_entry s u sm t i Hs Ls Lt) as [E Hne].
  rewrite (proj1 (same_gslice s o Hs Ho) Hsame) in E. unfold gslice, lookup_or_nil in E. rewrite Lo in E. destruct (lookup t om); congruence.
Qed.

Theorem set_equal_complete s o : wf s -> wf o -> same s o -> set_equal s o = true.
Proof.
  intros Hs Ho Hsame. pose proof (same_sym _ _ Hsame) as Hsym. unfold set_equal. apply andb_true_iff. split.
  - apply Nat.eqb_eq, same_length; [apply Hs|apply Ho|intros u sm; apply same_key|intros u om; apply same_key]; assumption.
  - apply forallb_forall. intros [u sm] Hi. pose proof (In_lookup _ _ _ (proj1 Hs) Hi) as Ls.
    destruct (same_key s o u sm Hs Ho Hsame Ls) as [om Lo]. rewrite Lo.
    destruct (wf_entry _ _ _ Hs Ls) as (_ & Nds & _). destruct (wf_entry _ _ _ Ho Lo) as (_ & Ndo & _).
    apply andb_true_iff. split.
    + apply Nat.eqb_eq, same_length; [exact Nds|exact Ndo| |]; intros t i Lt; exists i.
      * apply (same_tag s o u sm om t i); assumption.
      * apply (same_tag o s u om sm t i); assumption.
    + apply forallb_forall. intros [t i] Hti. unfold lookup_or_nil.
      rewrite (same_tag s o u sm om t i Hs Ho Hsame Ls Lo (In_lookup _ _ _ Nds Hti)). apply slice_equal_eq. reflexivity.
Qed.

Corollary set_equal_iff s o : wf s -> wf o -> (set_equal s o = true <-> same s o).
Proof. intros Hs Ho. split; [apply set_equal_sound; assumption|apply set_equal_complete; assumption]. Qed.

(* findMostRecentNodeAndDetectSplitbrain does not depend on the order in which the positions are offered (the caller
   ranges over a Go map, so the order is arbitrary): the split-brain verdict is the same for every permutation, and
   when a node is returned, the set returned for one order holds exactly the transactions of the set returned for
   any other order. *)
Lemma all_wf_perm ps qs : Permutation ps qs -> all_wf ps -> all_wf qs.
Proof. intros P H p Hp. apply H. eapply Permutation_in; [apply Permutation_sym; exact P|exact Hp]. Qed.

Lemma contains_all_perm ps qs p : Permutation ps qs -> contains_all ps p -> contains_all qs p.
Proof. intros P H n Hn. apply H. eapply Permutation_in; [apply Permutation_sym; exact P|exact Hn]. Qed.

Lemma perm_nonnil (ps qs : list position) : Permutation ps qs -> ps <> [] -> qs <> [].
Proof. intros P H E. subst qs. apply Permutation_sym, Permutation_nil in P. contradiction. Qed.

Lemma maximum_perm ps qs : Permutation ps qs ->
  (exists p, In p ps /\ contains_all ps p) -> exists p, In p qs /\ contains_all qs p.
Proof. intros P (p & Hin & Hc). exists p. split; [eapply Permutation_in; eauto|eapply contains_all_perm; eauto]. Qed.

Theorem most_recent_splitbrain_order_independent ps qs : Permutation ps qs -> all_wf ps ->
  (most_recent ps = RecentSplitBrain <-> most_recent qs = RecentSplitBrain).
Proof.
  intros P W. destruct ps as [|p0 r].
  - apply Permutation_nil in P. subst qs. tauto.
  - assert (N1 : p0 :: r <> []) by discriminate.
    rewrite (most_recent_splitbrain_iff _ W N1), (most_recent_splitbrain_iff _ (all_wf_perm _ _ P W) (perm_nonnil _ _ P N1)).
    split; intros H K; apply H; [apply (maximum_perm _ _ (Permutation_sym P) K)|apply (maximum_perm _ _ P K)].
Qed.

Theorem most_recent_found_order_independent ps qs h st h' st' : Permutation ps qs -> all_wf ps ->
  most_recent ps = RecentFound h st -> most_recent qs = RecentFound h' st' -> same st st'.
Proof.
  intros P W E1 E2.
  destruct (most_recent_found _ _ _ W E1) as (p & Hp & _ & <- & Cp).
  destruct (most_recent_found _ _ _ (all_wf_perm _ _ P W) E2) as (q & Hq & _ & <- & Cq).
  apply subset_antisym; [apply Cq, (Permutation_in _ P Hp)|apply Cp, (Permutation_in _ (Permutation_sym P) Hq)].
Qed.
