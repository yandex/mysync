(* One writable master, from the side of what mysync does: in the repair tail of a manager iteration
   (offline-mode repair, topology repair incl. the disk guard, crash-recovery failover request, active-list
   update, optimisation sync) the ONLY server that is ever told SET read_only=0 is the recorded master -
   for every response of every call.  (Inside a switchover the promoted node is the other one: C01.) *)
From Coq Require Import ZArith NArith Bool List Lia.
From Mysync Require Import Base.Prog Base.ProgFacts Procs.ActiveNodes Procs.OfflineMode Procs.Repair Procs.Manager Proofs.ActiveNodesProofs Proofs.DiskGuardProofs Proofs.GatesProofs.
Import ListNotations.
Open Scope Z_scope.

Definition wrok (mst : host) (c : call) : Prop := match c with Sql h SSetWritable => h = mst | _ => True end.
Lemma tame_wrok mst (s : site) c : tame c = true -> wrok mst c.
Proof. destruct c as [h []| | | | | | | | | | | | | | |]; first [discriminate|intros; exact I]. Qed.

Lemma guard_wrok mst a (s : site) c : guard_call_ok mst a c -> wrok mst c.
Proof. destruct c as [h []| | | | | | | | | | | | | | |]; try (intros; exact I). intros [H _]. exact H. Qed.

Theorem tail_only_master_writable mst cfg env m c : tc_master c = mst ->
  allcalls (fun _ x => wrok mst x) (manager_tail cfg env m c).
Proof.
  intros <-. pose proof (fun A => allcalls_impl (A:=A) _ _ (tame_wrok (tc_master c))) as T.
  unfold manager_tail, tail_envs, repair_offline_mode, repair_cluster.
  apply allcalls_bind; [apply T, tame_offline_loop|]. intros _.
  apply allcalls_bind; [apply repair_loop_calls; [apply tame_wrok|apply guard_wrok]|]. intros rm.
  case (assoc (tc_master c) (tc_csd c)); [intros msd|exact I].
  apply allcalls_bind; [unfold approve_failover, approve_pre, approve_tail, issue_failover; walk ltac:(exact I)|].
  intros [|]; [exact I|]. apply T. walk ltac:(first [exact I | reflexivity | apply tame_update_active | apply tame_opt_sync]).
Qed.

(* on traces: every SET read_only=0 issued by the repair tail of an iteration goes to the recorded master *)
Theorem tail_writable_is_recorded_master cfg env m c tr o : runs (manager_tail cfg env m c) tr o ->
  forall e h, In e tr -> ev_call e = Sql h SSetWritable -> h = tc_master c.
Proof.
  intros R e h Hin Ec.
  pose proof (allcalls_sound _ _ (tail_only_master_writable (tc_master c) cfg env m c eq_refl) tr o R) as F.
  rewrite Forall_forall in F. specialize (F e Hin). unfold ProgFacts.ev_ok in F. cbv beta in F. rewrite Ec in F. exact F.
Qed.
