(* "The recorded master is updated last": in every run of performSwitchover - hence on every crash
   prefix - the write of the master key is the LAST call of the procedure, it is issued at most once,
   and it names the host whose SET read_only=0 has just been answered OK in the same run. *)
From Coq Require Import ZArith NArith Bool List Lia.
From Mysync Require Import Base.Prog Base.ProgFacts Base.Hoare Procs.Switchover Proofs.SwitchoverProofs.
Import ListNotations.
Open Scope Z_scope.

Theorem switchover_master_last_wp cfg env sw mem : wp ml_state ml_step ml_ok ml_init (perform_switchover cfg env sw mem) ml_post.
Proof.
  apply (wp_map _ _ sp_step (sp_ok (fun _ => True)) _ _ sp_ml (fun m => (0, m, false)) (fun _ => eq_refl)
           (fun s c H => proj1 (proj2 H)) (fun s c r => eq_refl) _ sp_init).
  eapply wp_conseq; [|apply switchover_spine]. intros st a H. exact (proj1 H).
Qed.

Lemma switchover_master_last_trace cfg env sw mem tr o : runs (perform_switchover cfg env sw mem) tr o ->
  trace_ok ml_state ml_step ml_ok ml_init tr.
Proof. intros R. exact (proj1 (wp_sound _ _ _ _ _ _ (switchover_master_last_wp cfg env sw mem) tr o R)). Qed.

(* what the monitor means on traces: after the write of the master key nothing follows, and the key is
   written with the host whose SET read_only=0 was answered OK before *)
Definition is_master_write (c : call) : bool := match c with DcsSet PMaster _ => true | _ => false end.

Lemma is_master_write_inv c : is_master_write c = true -> exists v, c = DcsSet PMaster v.
Proof. destruct c as [| |p v| | | | | | | | | | | | |]; try discriminate. destruct p; try discriminate. intros _. exists v. reflexivity. Qed.
Lemma ml_step_master st v r : mdone (ml_step st (DcsSet PMaster v) r) = true.
Proof. destruct r; reflexivity. Qed.
Lemma ml_step_mw st c r h : mw (ml_step st c r) = Some h -> mw st = Some h \/ (c = Sql h SSetWritable /\ r = ROk).
Proof.
  destruct c as [h0 []| |[] v| | | | | | | | | | | | |]; try (intros K; left; exact K); destruct r; try (intros K; left; exact K).
  intros K. injection K as ->. right. split; reflexivity.
Qed.
Lemma ml_step_mokd st c r : mokd (ml_step st c r) = true -> mokd st = true \/ (is_master_write c = true /\ r = ROk).
Proof.
  destruct c as [h0 []| |[] v| | | | | | | | | | | | |]; try (intros K; left; exact K); destruct r; try (intros K; left; exact K); try discriminate.
  intros _. right. split; reflexivity.
Qed.

Lemma ml_after_master st t1 e t2 : trace_ok ml_state ml_step ml_ok st (t1 ++ e :: t2) -> is_master_write (ev_call e) = true -> t2 = [].
Proof.
  intros T Hm. apply (trace_ok_last _ _ _ _ _ _ _ T). intros st' _ c [K _].
  destruct (is_master_write_inv _ Hm) as (v & Ev). rewrite Ev, ml_step_master in K. discriminate K.
Qed.

Lemma ml_not_before st t1 t2 : trace_ok ml_state ml_step ml_ok st (t1 ++ t2) -> t2 <> [] ->
  Forall (fun x => is_master_write (ev_call x) = false) t1.
Proof.
  intros T N. apply Forall_forall. intros x Hx. destruct (is_master_write (ev_call x)) eqn:Ex; [|reflexivity].
  destruct (in_split _ _ Hx) as (a & b & ->). rewrite <- app_assoc in T. apply ml_after_master in T; [|exact Ex].
  apply app_eq_nil in T. destruct (N (proj2 T)).
Qed.

Theorem master_written_last cfg env sw mem tr o : runs (perform_switchover cfg env sw mem) tr o ->
  forall t1 e t2, tr = t1 ++ e :: t2 -> is_master_write (ev_call e) = true ->
    t2 = [] /\ Forall (fun x => is_master_write (ev_call x) = false) t1 /\
    exists h w, ev_call e = DcsSet PMaster (VHost h) /\ In w t1 /\ ev_call w = Sql h SSetWritable /\ ev_resp w = ROk.
Proof.
  intros R t1 e t2 E Hm. pose proof (switchover_master_last_trace _ _ _ _ _ _ R) as T. subst tr.
  split; [exact (ml_after_master _ _ _ _ T Hm)|]. split.
  - apply (ml_not_before _ _ _ T). discriminate.
  - apply trace_ok_app in T. destruct T as [_ [[_ Hok] _]]. destruct (is_master_write_inv _ Hm) as (v & Ev). rewrite Ev in Hok.
    destruct Hok as (h & -> & Hw).
    destruct (fold_steps_origin ml_step (fun st => mw st = Some h) _ (fun st c r => ml_step_mw st c r h) _ _ Hw) as [K|(w & Hi & Hc & Hr)]; [discriminate K|].
    exists h, w. auto.
Qed.

(* on every crash prefix: a manager that died before the last call has not touched the master key *)
Theorem crash_prefix_keeps_master cfg env sw mem tr o k : runs (perform_switchover cfg env sw mem) tr o ->
  (k < length tr)%nat -> Forall (fun x => is_master_write (ev_call x) = false) (firstn k tr).
Proof.
  intros R Hk. pose proof (switchover_master_last_trace _ _ _ _ _ _ R) as T. rewrite <- (firstn_skipn k tr) in T.
  apply (ml_not_before _ _ _ T). intros E. pose proof (skipn_length k tr) as L. rewrite E in L. cbn in L. lia.
Qed.

Theorem success_means_master_recorded cfg env sw mem tr mem' :
  runs (perform_switchover cfg env sw mem) tr (Done (SwOk, mem')) ->
  exists t1 e h w, tr = t1 ++ [e] /\ ev_call e = DcsSet PMaster (VHost h) /\ ev_resp e = ROk /\
                   In w t1 /\ ev_call w = Sql h SSetWritable /\ ev_resp w = ROk.
Proof.
  intros R.
  destruct (wp_sound ml_state ml_step ml_ok _ _ _ (switchover_master_last_wp cfg env sw mem) tr _ R) as [_ Q].
  destruct (fold_steps_origin ml_step (fun st => mokd st = true) _ ml_step_mokd _ _ (Q eq_refl)) as [K|(e & Hi & Hm & Hr)]; [discriminate K|].
  destruct (in_split _ _ Hi) as (t1 & t2 & E).
  destruct (master_written_last cfg env sw mem tr _ R t1 e t2 E Hm) as (E2 & _ & h & w & Ec & Hw & Hwc & Hwr).
  subst t2. exists t1, e, h, w. repeat split; assumption.
Qed.

(* the procedure itself never writes the success record (last_switch) and never files a request: the monitor
   allows neither *)
Lemma switchover_calls_allowed (P : call -> Prop) cfg env sw mem tr o : (forall st c, ml_ok st c -> P c) ->
  runs (perform_switchover cfg env sw mem) tr o -> Forall (fun e => P (ev_call e)) tr.
Proof. intros H R. exact (trace_ok_Forall _ _ _ P H tr ml_init (switchover_master_last_trace _ _ _ _ _ _ R)). Qed.

Theorem switchover_never_records_success cfg env sw mem tr o : runs (perform_switchover cfg env sw mem) tr o ->
  Forall (fun e => forall v, ev_call e <> DcsSet PLastSwitch v) tr.
Proof. apply (switchover_calls_allowed (fun c => forall v, c <> DcsSet PLastSwitch v)). intros st c [_ Hok] v E. rewrite E in Hok. exact Hok. Qed.
Theorem switchover_never_files cfg env sw mem tr o : runs (perform_switchover cfg env sw mem) tr o ->
  Forall (fun e => forall v, ev_call e <> DcsCreate PSwitch v) tr.
Proof. apply (switchover_calls_allowed (fun c => forall v, c <> DcsCreate PSwitch v)). intros st c [_ Hok] v E. rewrite E in Hok. exact Hok. Qed.
