(* Who can be promoted: every SET read_only=0 that performSwitchover issues goes to a host of the active
   list the procedure was given (the old master too, if the list holds it).
   Together with C11 (a marked host is not in the computed list) and C04/C16 (cascade replicas are not in
   it): marked hosts and cascade replicas are never promoted under a list computed after the mark. *)
From Coq Require Import ZArith NArith Bool List Lia.
From Mysync Require Import Gtid.GtidSet Pure.Desirable Base.Prog Base.ProgFacts Base.Hoare Procs.ActiveNodes Procs.Switchover Proofs.GtidProofs Proofs.DesirableProofs Proofs.ActiveNodesProofs Proofs.SwitchoverProofs.
Import ListNotations.
Open Scope Z_scope.

(* stages 2 and 3 make only the candidate writable: the walk of SwitchoverProofs, with W the hosts the candidate may be *)
Lemma after_positions_promotes (W : host -> Prop) cfg env sw mem active positions tr o :
  (forall mrh mrs, most_recent positions = RecentFound mrh mrs -> forall nm, sw_choose cfg sw positions mrh = Some nm -> W nm) ->
  runs (sw_after_positions cfg env sw mem active positions) tr o -> Forall (fun e => wr_ok W (ev_call e)) tr.
Proof.
  intros Hw R. assert (Hi : sp_inv 1 (1, ml_init, false)) by (split; [discriminate|split; reflexivity]).
  destruct (wp_sound _ _ _ _ _ _ (sp_after_positions W cfg env sw mem active positions _ Hw Hi) tr o R) as [T _].
  revert T. apply trace_ok_Forall. intros st c H. apply H.
Qed.

Lemma most_recent_member ps h st : most_recent ps = RecentFound h st -> exists p, In p ps /\ p_host p = h.
Proof.
  destruct ps as [|p0 r]; [discriminate|]. cbn [most_recent].
  destruct (detect_splitbrain (p0 :: r) (fold_left recent_step r p0)); [discriminate|]. intros E. inversion E; subst.
  exists (fold_left recent_step r p0). split; [apply fold_recent_in|reflexivity].
Qed.
Lemma sw_choose_member cfg sw positions mrh mrs nm :
  most_recent positions = RecentFound mrh mrs -> sw_choose cfg sw positions mrh = Some nm ->
  sw_to sw = Some nm \/ exists p, In p positions /\ p_host p = nm.
Proof.
  intros Hmr. unfold sw_choose. destruct (sw_to sw) as [t|]; [intros E; inversion E; left; reflexivity|].
  destruct (sw_from sw) as [f|].
  - destruct (most_desirable _ _ _) as [|h|] eqn:Ed; try discriminate. intros E; inversion E; subst.
    destruct (most_desirable_member _ _ _ _ Ed) as (p & Hp & Hh). right. exists p. split; [|exact Hh].
    unfold filter_out_host in Hp. apply filter_In in Hp. apply Hp.
  - intros E; inversion E; subst. right. exact (most_recent_member _ _ _ Hmr).
Qed.

Lemma position_of_host h : rets (fun r => match r with RPos p => p_host p = h | _ => True end) (position_of h).
Proof.
  unfold position_of. apply rets_bind. intros s. destruct (snd s); [exact I|].
  apply rets_bind. intros g. destruct g as [gs|]; [|exact I].
  apply rets_bind. intros p. destruct (snd p); [exact I|]. reflexivity.
Qed.
Lemma node_positions_hosts s hosts tr ps : runs (node_positions s hosts) tr (Done (Some ps)) ->
  forall p, In p ps -> In (p_host p) hosts.
Proof.
  intros R p Hp. destruct (runs_par_results _ _ _ _ _ R) as [(rs & tk & tpar & Hrs & _ & Rk)|(s' & E)]; [|discriminate E].
  revert Rk. case (existsb _ rs); intros Rk; apply run_ret in Rk; destruct Rk as [_ E]; [discriminate E|]. injection E as <-.
  apply in_flat_map in Hp. destruct Hp as ([h r] & Hin & Hp). destruct r; try contradiction Hp. destruct Hp as [<-|[]].
  destruct (Hrs _ _ Hin) as (b & tb & Hb & Rb). apply in_map_iff in Hb. destruct Hb as (h0 & E & Hh0).
  rewrite <- (f_equal snd E : position_of h0 = b) in Rb. rewrite (rets_sound _ _ (position_of_host h0) _ _ Rb). exact Hh0.
Qed.

Local Notation nowr := (fun (_ : site) (c : call) => wr_ok (fun _ => False) c).
Lemma calm_nowr {A} (p : prog A) : allcalls (fun _ c => calmb c = true) p -> allcalls nowr p.
Proof. apply allcalls_impl. intros _ c H. apply calm1_wr_ok, calmb_calm1b, H. Qed.

Theorem promoted_host_is_listed cfg env sw mem tr o :
  runs (perform_switchover cfg env sw mem) tr o ->
  forall e h, In e tr -> ev_call e = Sql h SSetWritable -> In h (se_active env).
Proof.
  intros R e h Hin Ec. revert tr o R Hin.
  assert (Hbad : ~ ProgFacts.ev_ok nowr e) by (unfold ProgFacts.ev_ok; rewrite Ec; intros []).
  (* where in a run can e be?  Stage 1 makes nothing writable, and stage 2 is entered with positions of listed hosts *)
  change (located e (perform_switchover cfg env sw mem) (fun _ => In h (se_active env))).
  unfold perform_switchover.
  case_eq (match sw_to sw with Some t => negb (mem_host t (se_active env)) | None => false end); intros Eto; [apply located_ret|].
  assert (Hto : forall t, sw_to sw = Some t -> In t (se_active env)).
  { intros t E. rewrite E in Eto. apply negb_false_iff in Eto. apply mem_host_In. exact Eto. }
  lif; [apply located_ret|].
  set (active := match sw_cause_ sw, sw_from sw with CauseAuto, Some f => _ | _, _ => _ end).
  assert (Hincl : incl active (se_active env)).
  { subst active. destruct (sw_cause_ sw); try apply incl_refl. destruct (sw_from sw); try apply incl_refl.
    destruct (N.eqb _ _); try apply incl_refl. unfold filter_out. intros x Hx. apply filter_In in Hx. apply Hx. }
  apply (located_bind nowr e Hbad); [apply quiet_allcalls, calm_nowr, d_opt_disable_all_k|]. intros [e0|] t1 _; [apply located_ret|].
  apply (located_bind nowr e Hbad); [apply quiet_allcalls, calm_nowr; cwalk|]. intros _ t2 _.
  apply (located_par nowr e Hbad); [apply all_branches_map; intros x _; apply calm_nowr, d_freeze|]. intros errs t3.
  lif.
  { apply (located_quiet nowr e Hbad), quiet_allcalls, calm_nowr. apply allcalls_bind; [apply d_finish|intros; exact I]. }
  case (state_ping (se_state env) (se_old_master env)); [intros _|apply located_panic].
  apply (located_par nowr e Hbad); [apply all_branches_map; intros x _; apply calm_nowr, d_stop_io|]. intros errs2 t4.
  set (frozen := filter (fun h => res_ok errs h && res_ok errs2 h) active).
  lif; [apply located_ret|].
  apply (located_bind nowr e Hbad); [apply quiet_allcalls; walk ltac:(first [exact I | reflexivity])|]. intros l1 t5 _. case (negb l1); [apply located_ret|].
  apply (located_bind nowr e Hbad); [apply quiet_allcalls, calm_nowr, c_node_positions|]. intros [positions|] t6 R6; [|apply located_ret].
  lif; [apply located_ret|].
  lif; [apply located_ret|].
  intros tr o R Hin.
  assert (F : Forall (fun x => wr_ok (fun h => In h (se_active env)) (ev_call x)) tr).
  { apply (after_positions_promotes _ _ _ _ _ _ _ _ _) with (2 := R). intros mrh mrs Emr nm Ech.
    destruct (sw_choose_member _ _ _ _ _ _ Emr Ech) as [E|(p & Hp & <-)]; [exact (Hto _ E)|]. apply Hincl.
    pose proof (node_positions_hosts _ _ _ _ R6 p Hp) as Hf. apply filter_In in Hf. apply Hf. }
  rewrite Forall_forall in F. specialize (F e Hin). rewrite Ec in F. exact F.
Qed.
