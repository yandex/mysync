From Coq Require Import ZArith NArith Bool List Lia.
From Mysync Require Import Base.Prog Base.ProgFacts Base.Config Procs.NodeOps Procs.Lost Procs.ActiveNodes Procs.Switchover Procs.Repair
  Proofs.NodeOpsProofs Proofs.ActiveNodesProofs Proofs.SwitchoverProofs.
Import ListNotations.
Open Scope Z_scope.

Definition source_healthy (cfg : config) (cand : node_state) : bool :=
  ns_ping_ok cand && negb (ns_offline cand) &&
  (ns_is_master cand || (ns_repl_running cand && match slave_lag_of cand with Some l => l <? c_stream_from_reasonable_lag cfg | None => false end)).

(* One step of findBestStreamFrom: the host the walk looks at, whether the replica already streams from
   its configured source (asked on the first step only), and the step itself: the answer (inl) or the
   source to go on from (inr). *)
Definition fb_cur (self : host) (path : list host) : host := match path with x :: _ => x | [] => self end.
Definition fb_streaming (env : repair_env) (self : host) (path : list host) (sf : host) : bool :=
  match path with
  | [_] => match assoc self (re_state env) with
           | Some me => ns_repl_running me && match ns_slave me with Some rs => N.eqb (rs_source rs) sf | None => false end
           | None => false
           end
  | _ => false
  end.
Definition fb_next (cfg : config) (env : repair_env) (topo : list (host * option host)) (self : host) (path : list host) : host + host :=
  match (match assoc (fb_cur self path) topo with Some sf => sf | None => None end) with
  | None => inl (re_master env)
  | Some sf =>
      if mem_host sf path then inl (re_master env)
      else if fb_streaming env self path sf then inl sf
      else match assoc sf (re_state env) with
           | None => inl (re_master env)
           | Some cand => if source_healthy cfg cand then inl sf else inr sf
           end
  end.

Lemma find_best_S f cfg env topo self path :
  find_best_stream_from (S f) cfg env topo self path =
  match fb_next cfg env topo self path with
  | inl r => Ret r
  | inr sf => find_best_stream_from f cfg env topo self (sf :: path)
  end.
Proof.
  cbn [find_best_stream_from]. unfold fb_next, fb_cur, fb_streaming, source_healthy.
  destruct (match assoc _ topo with Some sf => sf | None => None end) as [sf|]; [|reflexivity].
  destruct (mem_host sf path); [reflexivity|].
  match goal with |- (if ?c then _ else _) = _ => destruct c end; [reflexivity|].
  destruct (assoc sf (re_state env)) as [cand|]; [|reflexivity].
  match goal with |- (if ?c then _ else _) = _ => destruct c end; reflexivity.
Qed.

Lemma fb_next_spec cfg env topo self path :
  match fb_next cfg env topo self path with
  | inl r => r = re_master env \/
      (assoc (fb_cur self path) topo = Some (Some r) /\ mem_host r path = false /\
       (fb_streaming env self path r = true \/ exists cand, assoc r (re_state env) = Some cand /\ source_healthy cfg cand = true))
  | inr sf => assoc (fb_cur self path) topo = Some (Some sf) /\ mem_host sf path = false
  end.
Proof.
  unfold fb_next. destruct (assoc (fb_cur self path) topo) as [[sf|]|]; auto.
  destruct (mem_host sf path) eqn:Em; auto. destruct (fb_streaming env self path sf) eqn:Es; auto.
  destruct (assoc sf (re_state env)) as [cand|] eqn:Ec; auto. destruct (source_healthy cfg cand) eqn:Eh; eauto 8.
Qed.

(* a pure reading of findBestStreamFrom: no external call at all, and no crash *)
Lemma find_best_returns fuel cfg env topo self : forall path, exists r, find_best_stream_from fuel cfg env topo self path = Ret r.
Proof.
  induction fuel as [|f IH]; intros path; [cbn; eauto|]. rewrite find_best_S. destruct (fb_next cfg env topo self path); eauto.
Qed.
Lemma find_best_pure fuel cfg env topo self : forall path,
  (exists r, find_best_stream_from fuel cfg env topo self path = Ret r) \/
  (exists s, find_best_stream_from fuel cfg env topo self path = Panic s).
Proof. intros path. left. apply find_best_returns. Qed.

(* never the replica itself: the replica is in the loop detector from the start *)
Theorem find_best_never_self fuel cfg env topo self : forall path r,
  In self path -> self <> re_master env ->
  find_best_stream_from fuel cfg env topo self path = Ret r -> r <> self.
Proof.
  induction fuel as [|f IH]; intros path r Hin Hm H; [inversion H; subst; auto|].
  rewrite find_best_S in H. pose proof (fb_next_spec cfg env topo self path) as K. destruct (fb_next cfg env topo self path) as [r'|sf].
  - injection H as ->. destruct K as [->|(_ & Em & _)]; [auto|]. intros ->. apply mem_host_In in Hin. congruence.
  - apply (IH (sf :: path) r); [right; exact Hin|exact Hm|exact H].
Qed.

(* the configured source wins when it is healthy (or is what the replica streams from) *)
Theorem find_best_configured_healthy fuel cfg env topo self sf cand :
  assoc self topo = Some (Some sf) -> sf <> self -> assoc sf (re_state env) = Some cand -> source_healthy cfg cand = true ->
  find_best_stream_from (S fuel) cfg env topo self [self] = Ret sf.
Proof.
  intros Ht Hne Hs Hh. rewrite find_best_S. unfold fb_next. cbn [fb_cur]. rewrite Ht.
  assert (mem_host sf [self] = false) as ->.
  { apply not_true_iff_false. intros K. apply mem_host_In in K. destruct K as [K|[]]. congruence. }
  destruct (fb_streaming env self [self] sf); [reflexivity|]. rewrite Hs, Hh. reflexivity.
Qed.

Theorem find_best_unconfigured_is_master fuel cfg env topo self :
  (assoc self topo = None \/ assoc self topo = Some None) ->
  find_best_stream_from (S fuel) cfg env topo self [self] = Ret (re_master env).
Proof. intros [H|H]; rewrite find_best_S; unfold fb_next; cbn [fb_cur]; rewrite H; reflexivity. Qed.

(* termination: the walk only ever appends hosts that are configured sources and not
   yet on the path; with more fuel than topology entries the out-of-fuel case is
   never the one that answers, i.e. the answer no longer depends on the fuel *)
(* the path is the hosts walked so far, newest first, then the host the walk started from *)
Lemma find_best_fuel_stable cfg env topo self z : forall fuel pre,
  NoDup (pre ++ [z]) -> (forall x, In x pre -> In (Some x) (map snd topo)) ->
  (length topo + 1 <= fuel + length pre)%nat ->
  find_best_stream_from fuel cfg env topo self (pre ++ [z]) = find_best_stream_from (S fuel) cfg env topo self (pre ++ [z]).
Proof.
  induction fuel as [|f IH]; intros pre Hnd Hin Hlen.
  - (* pigeonhole: pre is duplicate-free and drawn from the configured sources *)
    exfalso. apply NoDup_remove_1 in Hnd. rewrite app_nil_r in Hnd.
    assert (Hnd2 : NoDup (map Some pre)) by (apply FinFun.Injective_map_NoDup; [intros a b E; inversion E; reflexivity|exact Hnd]).
    assert (Hi : incl (map Some pre) (map snd topo)) by (intros o Ho; apply in_map_iff in Ho; destruct Ho as (x & <- & Hx); apply Hin; exact Hx).
    pose proof (NoDup_incl_length Hnd2 Hi) as Hl. rewrite !map_length in Hl. lia.
  - rewrite (find_best_S (S f)), (find_best_S f). pose proof (fb_next_spec cfg env topo self (pre ++ [z])) as K.
    destruct (fb_next cfg env topo self (pre ++ [z])) as [r|sf]; [reflexivity|]. destruct K as [Ea Em].
    apply (IH (sf :: pre)).
    + change (NoDup (sf :: (pre ++ [z]))). constructor; [|exact Hnd]. intros K. apply mem_host_In in K. congruence.
    + intros x [<-|Hx]; [exact (in_map snd _ _ (assoc_some_in _ _ _ Ea))|exact (Hin x Hx)].
    + cbn [length]. lia.
Qed.

Theorem find_best_terminates cfg env topo self k :
  find_best_stream_from (S (S (length topo))) cfg env topo self [self] =
  find_best_stream_from (k + S (S (length topo))) cfg env topo self [self].
Proof.
  induction k as [|k IH]; [reflexivity|]. rewrite IH. cbn [plus].
  apply (find_best_fuel_stable cfg env topo self self _ []); [constructor; [intros []|constructor]|intros x []|cbn; lia].
Qed.

(* what repairing replica h may issue: statements to h only, never SET read_only=0,
   re-pointing never at itself; coordination writes: only the recovery protocol
   (list without the host, recovery marks) - never the recorded master *)
Definition rs_ok (h : host) (c : call) : Prop :=
  match c with
  | Sql x (SChangeSource src) => x = h /\ src <> h
  | Sql _ SSetWritable => False
  | Sql x _ => x = h
  | DcsSet PActiveNodes _ | DcsCreate PRecoveryDir _ | DcsCreate (PRecovery _) _ => True
  | DcsSet _ _ | DcsCreate _ _ | DcsDelete _ | DcsSetEph _ _ => False
  | DcsGet _ | DcsChildren _ | Now | Sleep _ | Peek _ | FileWrite _ => True
  | _ => False
  end.

Section Footprint.
Variable P : site -> call -> Prop.

Lemma ac_wait_repl_start fuel h dl :
  P 2101 Now -> P 2102 (Sql h SShowReplica) -> P 2111 (Sleep sec) -> allcalls P (wait_repl_start fuel h dl).
Proof.
  intros H1 H2 H3. induction fuel as [|f IH]; cbn [wait_repl_start]; walk ltac:(first [exact I|assumption]).
Qed.

End Footprint.

(* the leaves of the walks below: a call fits [rs_ok] by computation (re-pointing: by the hypothesis that the
   source is another host), a sub-procedure by its lemma, looked up in the hint database [rs_ok] *)
Create HintDb rs_ok discriminated.
Ltac rs_leaf := first [exact I | reflexivity | split; [reflexivity|assumption] | solve [auto with nocore rs_ok]].

Lemma r_set_ro h : allcalls (fun _ c => rs_ok h c) (set_read_only h true).
Proof. apply ac_set_read_only_once; reflexivity. Qed.

Lemma r_pcm cfg h m : allcalls (fun _ c => rs_ok h c) (perform_change_master cfg h m).
Proof.
  unfold perform_change_master. destruct (N.eqb_spec h m) as [|Hne]; [exact I|]. apply not_eq_sym in Hne.
  walk ltac:(first [exact I|reflexivity|split; [reflexivity|assumption]|apply ac_wait_repl_start; first [exact I|reflexivity]]).
Qed.

Lemma r_set_recovery h : allcalls (fun _ c => rs_ok h c) (set_recovery h).
Proof. unfold set_recovery. walk ltac:(exact I). Qed.

Lemma r_fetch_topo h : allcalls (fun _ c => rs_ok h c) fetch_cascade_topology.
Proof.
  unfold fetch_cascade_topology. walk ltac:(exact I).
  match goal with |- allcalls _ (_ ?l) => induction l as [|h0 r0 IH] end; walk ltac:(first [exact I|exact IH]).
Qed.
#[local] Hint Resolve r_set_ro r_pcm r_set_recovery r_fetch_topo : rs_ok.

Lemma r_reset_alg h m : h <> m -> allcalls (fun _ c => rs_ok h c) (reset_slave_algorithm h m).
Proof. intros Hne. apply not_eq_sym in Hne. unfold reset_slave_algorithm. walk rs_leaf. Qed.
#[local] Hint Resolve r_reset_alg : rs_ok.

Lemma r_try_repair cfg h m mem : h <> m -> allcalls (fun _ c => rs_ok h c) (try_repair_replication cfg h m mem).
Proof. intros Hne. unfold try_repair_replication, cooldown_passed. walk rs_leaf. Qed.

Lemma r_mark_running cfg h mem : allcalls (fun _ c => rs_ok h c) (mark_replication_running cfg h mem).
Proof. unfold mark_replication_running, cooldown_passed. walk rs_leaf. Qed.

Lemma r_cascade cfg env topo h ns la : allcalls (fun _ c => rs_ok h c) (repair_cascade_node cfg env topo h ns la).
Proof.
  unfold repair_cascade_node. destruct (find_best_returns (S (S (length topo))) cfg env topo h [h]) as [cand ->]. cbn [bind].
  walk rs_leaf.
Qed.
#[local] Hint Resolve r_try_repair r_mark_running r_cascade : rs_ok.

(* The deliberate panic of performChangeMaster(host, host) is unreachable from the cascade repair
   (after the repair bee82ca the blind path resolves its source too): every source it re-points to comes
   from the resolver, which never returns the replica itself *)
Definition not_self_repoint (s : site) : Prop := s <> 2079.
Lemma np_wait_repl_start f h d : nopanic (wait_repl_start f h d).
Proof. induction f as [|f IH]; cbn [wait_repl_start]; walk ltac:(first [exact I|exact IH]). Qed.
Lemma np_perform_change_master cfg h m : h <> m -> nopanic (perform_change_master cfg h m).
Proof.
  intros Hne. unfold perform_change_master. destruct (N.eqb_spec h m) as [->|_]; [contradiction|].
  walk ltac:(first [exact I|apply np_wait_repl_start]).
Qed.

Theorem cascade_repair_never_repoints_to_itself cfg env topo h ns la : h <> re_master env ->
  panics_in not_self_repoint (repair_cascade_node cfg env topo h ns la).
Proof.
  intros Hm. unfold repair_cascade_node.
  destruct (find_best_returns (S (S (length topo))) cfg env topo h [h]) as [cand Ec]. rewrite Ec. cbn [bind].
  pose proof (find_best_never_self _ cfg env topo h [h] cand (or_introl eq_refl) Hm Ec) as Hc.
  (* what is left crashes only where the candidate is not registered *)
  walk ltac:(first [exact I | apply nopanic_panics_in, np_perform_change_master; auto | intro; discriminate]).
Qed.

Theorem cascade_repair_no_self_repoint_panic cfg env topo h ns la tr s :
  h <> re_master env -> runs (repair_cascade_node cfg env topo h ns la) tr (Panicked s) -> s <> 2079.
Proof.
  intros Hm R.
  exact (panics_in_sound not_self_repoint _ (cascade_repair_never_repoints_to_itself cfg env topo h ns la Hm) tr s R).
Qed.

Theorem repair_slave_calls cfg env h ns mem : h <> re_master env ->
  allcalls (fun _ c => rs_ok h c) (repair_slave_node cfg env h ns mem).
Proof. intros Hne. unfold repair_slave_node, stop_replication_on_master. walk rs_leaf. Qed.

(* RESET REPLICA ALL on a replica is only ever issued by the reset algorithm, which
   runs only when: aggressive repair, start attempts exhausted, reset attempts below
   the limit (the cooldown test is the Now-dependent branch just before) *)
Theorem suitable_algo_reset_guard cfg st count :
  suitable_algo cfg st = Some (AlgReset, count) ->
  c_repair_aggressive cfg = true /\ c_repair_max_attempts cfg <= rp_start_count st /\
  rp_reset_count st < c_repair_max_attempts cfg /\ count = rp_reset_count st.
Proof.
  unfold suitable_algo. destruct (Z.ltb_spec (rp_start_count st) (c_repair_max_attempts cfg)); [discriminate|].
  destruct (c_repair_aggressive cfg); cbn [andb]; [|discriminate].
  destruct (Z.ltb_spec (rp_reset_count st) (c_repair_max_attempts cfg)); [|discriminate].
  intros E; inversion E; subst. auto.
Qed.

Definition no_reset (c : call) : Prop := match c with Sql _ SResetReplAll => False | _ => True end.
Theorem try_repair_no_reset_unless_allowed cfg h m mem st :
  assoc h (rm_repair mem) = Some st ->
  (forall count, suitable_algo cfg st <> Some (AlgReset, count)) ->
  allcalls (fun _ c => no_reset c) (try_repair_replication cfg h m mem).
Proof.
  intros Ha Hs. unfold try_repair_replication, cooldown_passed. rewrite Ha. cbn [bind].
  destruct (suitable_algo cfg st) as [[[|] count]|] eqn:E; [|destruct (Hs count eq_refl)|]; walk ltac:(exact I).
Qed.
